(* C02 - a message ID is delivered and validated at most once within the seen window. *)
From Coq Require Import List ZArith Lia.
Import ListNotations.
From PS Require Import Model.TimeCache Model.Dedup Proofs.DedupProofs.
Local Open Scope Z_scope.

(* the cache alone *)
Theorem C02_add_true_iff_absent : forall c i now, fst (tc_add c i now) = true <-> lookup i (entries c) = None.
Proof. exact tc_add_true_iff_absent. Qed.
Theorem C02_add_makes_present : forall c i now, exists e, lookup i (entries (snd (tc_add c i now))) = Some e.
Proof. exact tc_add_present. Qed.
Theorem C02_sweep_removes_exactly_expired : forall c i now, NoDup (keys (entries c)) ->
  lookup i (entries (tc_sweep c now))
  = match lookup i (entries c) with Some e => if e <? now then None else Some e | None => None end.
Proof. exact tc_sweep_spec. Qed.
Print Assumptions C02_sweep_removes_exactly_expired.

(* the node: for every history of RPCs carrying any multiset of copies, local publishes of the same
   IDs, a validator blocking the worker for any length of time, and any passage of time, under both
   strategies: successful markSeen's of one ID are more than the TTL apart ... *)
Theorem C02_passes_separated : forall sg t c l s evs i,
  0 <= t -> 0 < interval c -> run c (init sg t c) l = Some (s, evs) -> sep t (passes_of i s).
Proof. intros sg t c l s evs i Ht Hi R. apply (run_init_J sg t c l s evs Ht Hi R). Qed.
Print Assumptions C02_passes_separated.

(* ... and the validators are invoked, and the message delivered, at most once per successful markSeen *)
Theorem C02_invoked_at_most_once_per_window : forall sg t c l s evs i,
  0 <= t -> 0 < interval c -> run c (init sg t c) l = Some (s, evs) ->
  (count_ev (is_invoke i) evs <= length (passes_of i s))%nat.
Proof.
  intros sg t c l s evs i Ht Hi R. pose proof (j_inv _ _ _ _ (run_init_J sg t c l s evs Ht Hi R) i) as H. cbn in H. lia.
Qed.
Theorem C02_delivered_at_most_once_per_window : forall sg t c l s evs i,
  0 <= t -> 0 < interval c -> run c (init sg t c) l = Some (s, evs) ->
  (count_ev (is_deliver i) evs <= length (passes_of i s))%nat.
Proof.
  intros sg t c l s evs i Ht Hi R. pose proof (j_del _ _ _ _ (run_init_J sg t c l s evs Ht Hi R) i) as H. cbn in H. lia.
Qed.
Print Assumptions C02_delivered_at_most_once_per_window.

(* remembered for at least the TTL (from the first sighting under first-seen; the last-seen
   strategy only ever extends the expiry) *)
Theorem C02_remembered_for_ttl : forall sg t c l s evs i a,
  0 <= t -> 0 < interval c -> run c (init sg t c) l = Some (s, evs) ->
  In (i, a) (passes s) -> clock s <= a + t -> lookup i (entries (cache s)) <> None.
Proof. intros sg t c l s evs i a Ht Hi R. apply (K_remembered t), (run_init_J sg t c l s evs Ht Hi R). Qed.
Print Assumptions C02_remembered_for_ttl.

Example C02_nonvacuous :
  let c := {| has_val := true; verdict_of := []; blocks := [7%nat]; qcap := 3; interval := 60 |} in
  exists s evs, run c (init FirstSeen 100 c) [ORecv [7%nat]; ORecv [5%nat; 5%nat; 7%nat]; OLocal 5%nat; ORelease VAccept;
                                              OSleep 161; ORecv [5%nat]] = Some (s, evs)
    /\ evs = [EInvoke 7%nat; EDup 7%nat; EInvoke 5%nat; EDeliver 5%nat; ELocal true; EDeliver 7%nat;
              EDup 5%nat; EDup 5%nat; EInvoke 5%nat; EDeliver 5%nat]
    /\ passes_of 5%nat s = [161; 0].
Proof. eexists. eexists. vm_compute. repeat split. Qed.
