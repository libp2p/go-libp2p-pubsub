(* C11 - splitting an oversized RPC loses nothing and respects the size limit. Property theorems only. *)
From Coq Require Import List NArith.
Import ListNotations.
From PS Require Import Model.Wire Model.Split Model.SplitContent Proofs.SplitProofs.
Local Open Scope N_scope.

(* For every RPC and every limit, kind by kind (published messages, subscriptions, GRAFT, PRUNE,
   IWANT ids, IHAVE (topic, id) pairs, IDONTWANT ids, extensions, partial, test extension) the
   fragments carry exactly the original contents, in order: nothing dropped, nothing duplicated. *)
Theorem C11_split_content : forall limit r k, flat (split limit r) k = content r k.
Proof. exact split_content. Qed.
Print Assumptions C11_split_content.

Theorem C11_split_no_empty : forall limit r f, In f (split limit r) -> is_empty f = false.
Proof. exact split_no_empty. Qed.
Print Assumptions C11_split_no_empty.

(* every fragment fits the limit unless it is a single indivisible element *)
Theorem C11_split_fits : forall limit r f, In f (split limit r) -> size f <= limit \/ (atoms f <= 1)%nat.
Proof. exact split_fits. Qed.
Print Assumptions C11_split_fits.

(* sendRPC: nothing larger than the limit is queued; what is dropped is a single oversize element;
   every element of the original is in a queued or a (reported) dropped fragment *)
Theorem C11_send_never_queues_oversize : forall max r f, In f (fst (send_rpc max r)) -> size f <= max.
Proof. exact send_never_queues_oversize. Qed.
Theorem C11_send_drops_only_single_oversize : forall max r f,
  In f (snd (send_rpc max r)) -> max < size f /\ (atoms f <= 1)%nat /\ is_empty f = false.
Proof. exact send_drops_only_single_oversize. Qed.
Theorem C11_send_content : forall max r k x, In x (content r k) -> size r >= max ->
  exists f, (In f (fst (send_rpc max r)) \/ In f (snd (send_rpc max r))) /\ In x (content f k).
Proof. intros max r k x Hx _. exact (send_content max r k x Hx). Qed.
Print Assumptions C11_send_drops_only_single_oversize.

Example C11_nonvacuous :
  let m := fun t n => {| pm_tag := t; pm_from := None; pm_data := Some n; pm_seqno := None; pm_topic := Some 3;
                         pm_sig := None; pm_key := None; pm_unk := 0 |} in
  let r := {| r_subs := [{| so_tag := 1; so_sub := true; so_topic := Some 5; so_req := false; so_sup := false |}];
              r_pub := [m 2%nat 40; m 3%nat 10; m 4%nat 10];
              r_ctl := Some {| c_ihave := [{| ih_ptr := Some 7%nat; ih_tlen := 4; ih_ids := [(8%nat, 6); (9%nat, 6)] |}];
                               c_iwant := []; c_graft := []; c_prune := [];
                               c_idw := [{| iw_ids := [(10%nat, 6); (11%nat, 6)] |}];
                               c_ext := Some {| ex_partial := true; ex_test := false |} |};
              r_partial := None; r_test := true |} in
  map size (split 30 r) = [49; 19; 19; 30; 28; 20] /\ map atoms (split 30 r) = [1; 1; 1; 3; 2; 2]%nat.
Proof. vm_compute. split; reflexivity. Qed.
