(* C15 - the per-peer outbound queue is a linearizable bounded two-class FIFO. Property theorems only. *)
From Coq Require Import List Lia.
Import ListNotations.
From PS Require Import Model.RpcQueue Proofs.RpcQueueProofs.

(* In every reachable state of every schedule of any number of pushers, poppers, cancellers and
   closers (with or without the mutex in the AfterFunc): *)

Theorem C15_bounded : forall afl cap l s, run afl (init cap) l = Some s -> len s <= s_cap (q s).
Proof. exact bounded. Qed.
Print Assumptions C15_bounded.

Theorem C15_capacity_constant : forall afl s a s', step afl s a = Some s' -> s_cap (q s') = s_cap (q s).
Proof. exact cap_const. Qed.
Print Assumptions C15_capacity_constant.

(* per class, what was accepted = what was popped (in the same order) followed by what is queued:
   nothing lost, nothing duplicated, each class FIFO *)
Theorem C15_fifo_no_loss_no_dup : forall afl cap l s, run afl (init cap) l = Some s ->
  pushedU s = poppedU s ++ s_prio (q s) /\ pushedN s = poppedN s ++ s_norm (q s).
Proof. intros afl cap l s R. destruct (inv_Q _ _ (reachable_invariants _ _ _ _ R)); auto. Qed.
Print Assumptions C15_fifo_no_loss_no_dup.

(* linearizability: each step applies at most one operation of the sequential specification *)
Theorem C15_refines_spec : forall afl s a s', step afl s a = Some s' ->
  (q s' = q s /\ (results s' = results s \/ exists i r, results s' = (i, r) :: results s /\
                   (r = RCancelled \/ r = RClosed /\ s_closed (q s) = true \/ r = RPanic /\ s_closed (q s) = true
                    \/ r = RFull /\ exists x u, s_push (q s) x u = (q s, RFull))))
  \/ (exists i x, s_pop (q s) = (q s', RItem x) /\ results s' = (i, RItem x) :: results s)
  \/ (exists i x u, s_push (q s) x u = (q s', ROk) /\ results s' = (i, ROk) :: results s)
  \/ (q s' = s_close (q s) /\ results s' = results s).
Proof. exact step_refines_spec. Qed.
Print Assumptions C15_refines_spec.

(* the sequential specification: urgent first, queue-full exactly when full, closed reported *)
Theorem C15_spec_urgent_first : forall qq q' x, s_pop qq = (q', RItem x) ->
  match s_prio qq with y :: _ => x = y | [] => exists n, s_norm qq = x :: n end.
Proof. exact spec_pop_urgent_first. Qed.
Theorem C15_spec_full_iff : forall qq x u, s_closed qq = false -> (snd (s_push qq x u) = RFull <-> s_len qq = s_cap qq).
Proof. exact spec_push_full_iff. Qed.
Theorem C15_spec_push_on_closed : forall qq x u, s_closed qq = true -> s_push qq x u = (qq, RPanic).
Proof. exact spec_push_on_closed. Qed.
Theorem C15_spec_pop_on_closed : forall qq, s_closed qq = true -> s_pop qq = (qq, RClosed).
Proof. exact spec_pop_on_closed. Qed.
Print Assumptions C15_spec_full_iff.

(* no lost Signal: at quiescence a pusher is blocked only on a full queue, a popper only on an empty one *)
Theorem C15_blocked_push_only_when_full : forall afl cap l s, run afl (init cap) l = Some s ->
  s_closed (q s) = false -> space_wait s <> [] -> u_woken s = [] -> len s = s_cap (q s).
Proof.
  intros afl cap l s R C W U. destruct (reachable_invariants _ _ _ _ R) as [Q S _].
  pose proof (qi_bound _ Q) as B. pose proof (si_space _ S C W) as Sp. rewrite U in Sp. cbn in Sp. lia.
Qed.
Print Assumptions C15_blocked_push_only_when_full.
Theorem C15_blocked_pop_only_when_empty : forall afl cap l s, run afl (init cap) l = Some s ->
  s_closed (q s) = false -> data_wait s <> [] -> p_woken s = [] -> len s = 0.
Proof.
  intros afl cap l s R C W U. pose proof (si_data _ (inv_S _ _ (reachable_invariants _ _ _ _ R)) C W) as Dt.
  rewrite U in Dt. cbn in Dt. lia.
Qed.
Print Assumptions C15_blocked_pop_only_when_empty.
Theorem C15_nobody_parked_after_close : forall afl cap l s, run afl (init cap) l = Some s ->
  s_closed (q s) = true -> space_wait s = [] /\ data_wait s = [].
Proof. intros afl cap l s R. apply (si_closed _ (inv_S _ _ (reachable_invariants _ _ _ _ R))). Qed.
Print Assumptions C15_nobody_parked_after_close.

(* cancellation is never lost when the AfterFunc broadcasts under the mutex ... *)
Theorem C15_no_lost_cancel : forall cap l s i, run true (init cap) l = Some s ->
  memb i (data_wait s) = true -> memb i (cancelled s) = true -> aget i (af s) = Some AFPending.
Proof. exact no_lost_cancel. Qed.
Print Assumptions C15_no_lost_cancel.
Theorem C15_cancel_progress : forall cap l s i, run true (init cap) l = Some s -> holder s = None ->
  memb i (data_wait s) = true -> memb i (cancelled s) = true ->
  exists s1, step true s (AFRun i) = Some s1 /\ memb i (p_woken s1) = true /\ data_wait s1 = [].
Proof. exact cancel_progress. Qed.
Theorem C15_cancelled_pop_returns : forall afl s i w s', memb i (cancelled s) = true ->
  step afl s (PopRelock i w) = Some s' -> exists r, results s' = (i, r) :: results s.
Proof. exact relock_cancelled_returns. Qed.
Print Assumptions C15_cancel_progress.

(* ... and can be lost for good without it (the pinned tree's defect, fixed by a "fix:" commit) *)
Theorem C15_lost_cancel_without_lock :
  exists s, run false (init 1) lost_cancel_schedule = Some s
            /\ memb 1 (data_wait s) = true /\ memb 1 (cancelled s) = true
            /\ aget 1 (af s) = Some AFRan /\ p_woken s = [] /\ holder s = None.
Proof. exact lost_cancel_without_lock. Qed.

Example C15_nonvacuous :
  exists s, run true (init 1) [PushBegin 1 10 false true None; PushBegin 2 11 false true None;
                               PopBegin 3 (Some 2); PushRelock 2 None; PopBegin 4 None; PopBegin 5 None;
                               PopWait 5; Cancel 5; AFRun 5; PopRelock 5 None] = Some s
            /\ results s = [(5, RCancelled); (4, RItem 11); (2, ROk); (3, RItem 10); (1, ROk)].
Proof. eexists. vm_compute. repeat split. Qed.
