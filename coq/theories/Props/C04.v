(* C04 - validator verdicts decide delivery, forwarding and penalties. Property theorems only. *)
From Coq Require Import List Bool Permutation.
Import ListNotations.
From PS Require Import Model.Verdict Proofs.VerdictProofs.

(* delivered (and forwarded) only if every applicable validator accepted: no inline Reject, Ignore or
   out-of-range value, and the asynchronous stage ran un-throttled and accepted *)
Theorem C04_deliver_needs_inline_accept : forall s,
  fate_of_setup s = Deliver -> any_inline_rej s = false /\ any_inline_ign s = false.
Proof. intros s H. destruct (deliver_needs_all_accept s H) as (A & B & _). auto. Qed.
Theorem C04_deliver_needs_async_accept : forall s,
  fate_of_setup s = Deliver -> asy s <> [] -> s_global_thr s = false /\ async_stage s = TAcc.
Proof. intros s H Ha. destruct (deliver_needs_all_accept s H) as (_ & _ & [E|E]); [contradiction | exact E]. Qed.
Theorem C04_async_accept_iff_all_accept : forall s v1 v2 rest, asy s = v1 :: v2 :: rest ->
  (async_stage s = TAcc <-> forallb (fun r => match r with TAcc => true | _ => false end) (async_results s) = true).
Proof. intros s v1 v2 rest Ea. unfold async_stage. rewrite Ea. apply async_accept_iff. Qed.
Print Assumptions C04_deliver_needs_async_accept.

(* Reject decides: an inline Reject rejects whatever else is configured; the asynchronous stage
   rejects iff some asynchronous validator rejected, in whatever order they complete *)
Theorem C04_inline_reject_rejects : forall s, any_inline_rej s = true -> fate_of_setup s = RejectPenalise.
Proof. exact inline_reject_rejects. Qed.
Theorem C04_async_reject_iff : forall l, async_loop l TAcc = TRej <-> existsb is_rej l = true.
Proof. exact async_reject_iff. Qed.
Theorem C04_completion_order_irrelevant : forall l1 l2 acc, Permutation l1 l2 -> async_loop l1 acc = async_loop l2 acc.
Proof. exact async_order_irrelevant. Qed.
Theorem C04_throttled_over_ignore : forall l, existsb is_rej l = false -> existsb is_thr l = true -> async_loop l TAcc = TThr.
Proof. exact async_throttled_over_ignore. Qed.
Print Assumptions C04_completion_order_irrelevant.

(* no penalty without a Reject: Ignore, out-of-range values and throttling never give RejectPenalise *)
Theorem C04_reject_needs_a_reject : forall s, fate_of_setup s = RejectPenalise ->
  any_inline_rej s = true \/ (asy s <> [] /\ s_global_thr s = false /\ async_stage s = TRej).
Proof. exact reject_needs_a_reject. Qed.
Print Assumptions C04_reject_needs_a_reject.

(* penalties: on Reject every forwarder (first sender, duplicates during validation, later senders)
   is penalised; on any other fate nobody ever is *)
Theorem C04_penalised_on_reject : forall during from after p,
  In p (snd (drun dinit (map SDup during ++ [SFate from RejectPenalise] ++ map SDup after)))
  <-> p = from \/ In p during \/ In p after.
Proof. exact penalised_on_reject. Qed.
Theorem C04_penalised_only_on_reject : forall during from f after, f <> RejectPenalise ->
  snd (drun dinit (map SDup during ++ [SFate from f] ++ map SDup after)) = [].
Proof. exact penalised_only_on_reject. Qed.
Print Assumptions C04_penalised_on_reject.

(* a locally published message runs every validator inline (never throttled); anything but Deliver
   makes Publish return the validation error and the message never leaves the node *)
Theorem C04_local_all_inline : forall s, s_local s = true -> asy s = [].
Proof. exact local_all_inline. Qed.
Theorem C04_local_never_throttled : forall s, s_local s = true -> fate_of_setup s <> ThrottledNoPenalty.
Proof. exact local_never_throttled. Qed.

(* the bounded validation queue in front of the pipeline: when it is full a remote message that validators apply to is
   dropped without penalty and without being delivered; delivery always needs the pipeline's Deliver *)
Theorem C04_queue_full_drops : forall s, queued s = true -> fate_q s true = ThrottledNoPenalty.
Proof. exact queue_full_drops. Qed.
Theorem C04_deliver_needs_pipeline : forall s q, fate_q s q = Deliver -> fate_of_setup s = Deliver /\ (q = false \/ queued s = false).
Proof. exact deliver_q_needs_pipeline. Qed.
Print Assumptions C04_deliver_needs_pipeline.

Example C04_nonvacuous :
  let s := {| s_vals := [{| v_inline := true; v_res := Other |}; {| v_inline := false; v_res := Acc |};
                         {| v_inline := false; v_res := Rej |}; {| v_inline := false; v_res := Ign |}];
              s_local := false; s_global_thr := false; s_thr := [false; false; true]; s_order := [1; 0] |} in
  fate_of_setup s = RejectPenalise /\ async_results s = [TThr; TRej; TAcc]
  /\ snd (drun dinit (map SDup [3; 4; 3] ++ [SFate 1 (fate_of_setup s)] ++ map SDup [5])) = [1; 4; 3; 5].
Proof. vm_compute. repeat split. Qed.
