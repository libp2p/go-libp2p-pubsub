(* C12 - no input from remote peers can crash the node or stall its event loop. Property theorems only.
   The theorems are about the inbound stream reader (Model/Frame.v), which the harness compares with a real
   node on arbitrary byte streams; absence of panics and liveness under hostile well-formed RPCs are harness
   observations (TestVF_Hostile). *)
From Coq Require Import List Bool Arith NArith.
Import ListNotations.
From PS Require Import Model.Frame Proofs.FrameProofs.
Local Open Scope N_scope.

(* for EVERY byte stream a peer writes: the reader terminates with a definite outcome (it is a total function of the
   bytes of that one stream) *)
Theorem C12_read_stream_total : forall max decodes bs, exists fs e, read_stream max decodes bs = (fs, e).
Proof. exact read_stream_total. Qed.
(* every frame handed to the event loop is non-empty, within the size limit and decodes as an RPC *)
Theorem C12_frames_wellformed : forall fuel max decodes bs fs e,
  reader fuel max decodes bs = (fs, e) ->
  forall f, In f fs -> f <> [] /\ (N.of_nat (length f) <= max) /\ decodes f = true.
Proof.
  intros fuel max decodes bs fs e H. apply Forall_forall. change fs with (fst (fs, e)). rewrite <- H. apply reader_frames.
Qed.
(* a frame announcing more than the limit, or whose payload does not decode, resets the stream and is not delivered *)
Theorem C12_oversize_resets : forall max decodes bs len rest,
  next_len bs = UOk len rest -> max < len -> reader (S (length bs)) max decodes bs = ([], EReset 2).
Proof. exact oversize_resets. Qed.
Theorem C12_undecodable_resets : forall max decodes bs len rest payload rest',
  next_len bs = UOk len rest -> len <> 0 -> len <= max -> take (N.to_nat len) rest = Some (payload, rest') -> decodes payload = false ->
  reader (S (length bs)) max decodes bs = ([], EReset 4).
Proof. exact undecodable_resets. Qed.
Print Assumptions C12_frames_wellformed.

Example C12_nonvacuous :
  (* two good frames, then a length prefix above the limit *)
  read_stream 4 (fun p => match p with [7] => true | [1; 2] => true | _ => false end) [1; 7; 0; 2; 1; 2; 9; 0; 0]
  = ([[7]; [1; 2]], EReset 2)
  /\ read_stream 4 (fun _ => true) [130; 0; 1; 5] = ([[5]], EClean)   (* a non-minimal varint is skipped, not fatal *)
  /\ read_stream 4 (fun _ => true) [3; 1] = ([], EReset 3)
  /\ read_stream 4 (fun _ => true) [171; 176] = ([], EClean).   (* a varint cut off by the end of the stream ends it politely *)
Proof. vm_compute. repeat split. Qed.
