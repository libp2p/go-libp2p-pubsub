(* C20 - the sequence-number validator never accepts a replay. Property theorems only. *)
From Coq Require Import List NArith.
Import ListNotations.
From PS Require Import Model.SeqnoVal Proofs.SeqnoValProofs.
Local Open Scope N_scope.

(* For every multiset of validations, every arrival order and every interleaving of their two
   phases: per author the accepted sequence numbers are strictly increasing in acceptance order
   ([accepted] is newest-first, hence strictly decreasing). *)
Theorem C20_accepted_strictly_increasing :
  forall l s, run init l = Some s -> forall a, strictly_decreasing (acc_of a (accepted s)) = true.
Proof. exact accepted_strictly_increasing. Qed.
Print Assumptions C20_accepted_strictly_increasing.

(* The stored nonce always equals the highest (= latest) accepted sequence number, 0 if none ... *)
Theorem C20_nonce_is_highest_accepted :
  forall l s, run init l = Some s -> forall a, nonce_of a (store s) = top a (accepted s).
Proof. intros l s R a. exact (ok_nonce _ _ (Inv_reachable _ _ R a)). Qed.
Print Assumptions C20_nonce_is_highest_accepted.

(* ... and never decreases. *)
Theorem C20_nonce_monotone :
  forall s x s', step s x = Some s' -> forall a, nonce_of a (store s) <= nonce_of a (store s').
Proof. exact nonce_monotone. Qed.
Print Assumptions C20_nonce_monotone.

(* A message is accepted only with a sequence number strictly above the stored nonce. *)
Theorem C20_accept_only_above_nonce :
  forall s x s' i, step s x = Some s' -> In (i, Accept) (results s') -> ~ In (i, Accept) (results s) ->
  x = AP2 i /\ exists t q, find_thr i (threads s) = Some t /\ decode (t_seq t) = Some q
                           /\ nonce_of (t_author t) (store s) < q
                           /\ store s' = (t_author t, q) :: store s
                           /\ accepted s' = (t_author t, q) :: accepted s.
Proof. exact accept_only_above_nonce. Qed.
Print Assumptions C20_accept_only_above_nonce.

(* A replay (sequence number not above the nonce) is ignored in whichever phase it is and leaves
   the store untouched; Ignore means neither delivery, forwarding nor penalty (C04). *)
Theorem C20_replay_ignored :
  forall s i t q, find_thr i (threads s) = Some t -> decode (t_seq t) = Some q ->
  q <= nonce_of (t_author t) (store s) ->
  forall x s', (x = AP1 i \/ x = AP2 i) -> step s x = Some s' ->
    In (i, Ignore) (results s') /\ store s' = store s /\ accepted s' = accepted s.
Proof. exact replay_ignored_unchanged. Qed.
Print Assumptions C20_replay_ignored.

(* Wrong-length encodings (1..7 bytes) are ignored, never decoded. *)
Theorem C20_malformed_ignored :
  forall s i t s', find_thr i (threads s) = Some t -> decode (t_seq t) = None -> step s (AP1 i) = Some s' ->
  In (i, Ignore) (results s') /\ store s' = store s /\ accepted s' = accepted s.
Proof. exact malformed_ignored. Qed.
Print Assumptions C20_malformed_ignored.

(* Zero - an absent or all-zero sequence number - is never accepted, first time or replay. *)
Theorem C20_zero_never_accepted :
  forall l s, run init l = Some s -> forall a q, In (a, q) (accepted s) -> 0 < q.
Proof. intros l s R a. exact (ok_pos _ _ (Inv_reachable _ _ R a)). Qed.
Print Assumptions C20_zero_never_accepted.

(* non-vacuity, including the maximum value 2^64-1, zero, a concurrent duplicate and a short encoding *)
Example C20_nonvacuous :
  exists s, run init [AStart 1%nat 7%nat [0;0;0;0;0;0;0;5]; AStart 2%nat 7%nat [0;0;0;0;0;0;0;5];
                      AStart 3%nat 7%nat [255;255;255;255;255;255;255;255]; AStart 4%nat 7%nat [0;0;0;0;0;0;0;0];
                      AStart 5%nat 7%nat [1;2;3];
                      AP1 1%nat; AP1 2%nat; AP2 2%nat; AP2 1%nat; AP1 4%nat; AP1 5%nat; AP1 3%nat; AP2 3%nat] = Some s
    /\ results s = [(3, Accept); (5, Ignore); (4, Ignore); (1, Ignore); (2, Accept)]%nat
    /\ nonce_of 7%nat (store s) = 18446744073709551615.
Proof. eexists. vm_compute. repeat split. Qed.
