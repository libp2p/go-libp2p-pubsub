(* C13 - all state attributable to a peer is reclaimed after it disconnects. Property theorems only. *)
From Coq Require Import List Bool Arith.
Import ListNotations.
From PS Require Import Model.Lifecycle Proofs.LifecycleDep Proofs.LifecycleProofs.

(* every handler preserves the dependency discipline: whatever has no timer of its own hangs off the outbound
   queue (mesh, fanout, buffers, protections via the mesh, extension "sent" state, gater statistics) or off the
   inbound stream (topic membership, extension handshake state).  One handler is excluded: a GRAFT accepted from
   a peer WITHOUT an outbound stream (known finding). *)
Theorem C13_dependencies_preserved : forall v e, depb v = true -> guarded v e = true -> depb (lstep v e) = true.
Proof. exact dep_step. Qed.
Print Assumptions C13_dependencies_preserved.

(* whatever the peer did while connected - any history of stream opens / closes in any order, RPCs of every
   kind (also on a stream that outlives the other direction), blacklisting, respawned writers - once its streams
   and connection are gone and the retention periods have passed, nothing attributable to it is left *)
Theorem C13_reclaimed_after_disconnect : forall l n,
  lrun_guarded pv0 l = true -> RETAIN < n ->
  reclaimed (lrun (lrun (lrun pv0 l) goodbye) (ticks n)) = true.
Proof.
  intros l n Hg Hn. apply reclaimed_after_goodbye; [apply dep_run; [reflexivity | exact Hg] | | exact Hn].
  apply bounded_run. now repeat split.
Qed.
Print Assumptions C13_reclaimed_after_disconnect.

(* without the exclusion the statement is FALSE of the faithful model (and of the code: known finding) *)
Theorem C13_reclaim_refuted_graft_without_outbound :
  exists l n, RETAIN < n /\ reclaimed (lrun (lrun (lrun pv0 l) goodbye) (ticks n)) = false.
Proof. exact reclaim_refuted_graft_without_outbound. Qed.

Example C13_nonvacuous :
  let l := [LNotify; LOutUp; LInUp; LAnyRPC; LSub; LGraft true; LGossip; LCtlBuffered; LDead true; LOutUp; LOurGraft; LInDown; LInUp; LSub] in
  lrun_guarded pv0 l = true /\ reclaimed (lrun pv0 l) = false
  /\ v_mesh (lrun pv0 l) = true /\ v_prot (lrun pv0 l) = true /\ v_topics (lrun pv0 l) = true.
Proof. vm_compute. repeat split. Qed.
