(* C09 - score thresholds gate what a peer may send and receive. Property theorems only.
   The gater, the dispatch under each AcceptFrom verdict and peer exchange are in Model/Gate.v. *)
From Coq Require Import List ZArith Bool.
Import ListNotations.
From PS Require Import Model.Router Model.Gossip Model.Gate Proofs.RouterProofs Proofs.GossipProofs Proofs.GateProofs.
Local Open Scope Z_scope.

(* graylist: exactly the non-direct peers below the graylist threshold are rejected, and every RPC part
   of a rejected peer (messages, GRAFT, PRUNE, IHAVE, IWANT, IDONTWANT) leaves the state untouched and
   produces no output; direct peers are always accepted *)
Theorem C09_graylist_rule : forall P sc g p,
  accept_from P sc g p = false <-> (~ In p (direct (core g)) /\ score_of sc p < gGraylistThr P).
Proof. exact graylist_rule. Qed.
Theorem C09_graylisted_ignored : forall P sc g o p,
  sender_of o = Some p -> accept_from P sc g p = false -> gstep P sc g o = Some (g, []).
Proof. exact graylisted_ignored. Qed.
Theorem C09_direct_always_accepted : forall P sc g p, In p (direct (core g)) -> accept_from P sc g p = true.
Proof. exact direct_always_accepted. Qed.
Print Assumptions C09_graylisted_ignored.

(* gossip threshold: IHAVE from below it is ignored entirely, IWANT from below it goes unanswered, and
   no IHAVE is ever sent to a peer below it (every IHAVE recipient is at or above it) *)
Theorem C09_ihave_ignored_below_gossip_threshold : forall P sc g p ih a pr g' a',
  score_of sc p < gGossipThr P -> handle_ihave P sc g p ih a pr = Some (g', a') -> g' = g /\ a' = [].
Proof. exact below_gossip_threshold_ihave_ignored. Qed.
Theorem C09_iwant_unanswered_below_gossip_threshold : forall P sc g p ids,
  score_of sc p < gGossipThr P -> handle_iwant P sc g p ids = (g, []).
Proof. exact below_gossip_threshold_iwant_unanswered. Qed.
Theorem C09_no_ihave_below_gossip_threshold : forall P sc g obs fobs gobs g' out q t ids,
  gstep P sc g (GHeartbeat obs fobs gobs) = Some (g', out) -> In (OIHave q t ids) out ->
  gGossipThr P <= score_of sc q.
Proof.
  intros P sc g obs fobs gobs g' out q t ids H Hin.
  destruct (ihave_emission _ _ _ _ _ _ _ _ _ _ _ H Hin) as [c [excl (_ & _ & _ & _ & _ & _ & Hs & _)]]. exact Hs.
Qed.
(* over whole histories: an IWANT is answered / an IHAVE is followed up only for accepted peers at or
   above the gossip threshold *)
Theorem C09_iwant_answers_gated : forall P g log en p ids i,
  reach P g log -> In en log -> e_op en = GRecvIWant p ids -> In (OMsg p i) (e_out en) ->
  gGossipThr P <= score_of (e_sc en) p /\ accept_from P (e_sc en) (e_pre en) p = true.
Proof. intros P g log en p ids i H1 H2 H3 H4. destruct (iwant_answers _ _ _ _ _ _ _ H1 H2 H3 H4) as (_ & _ & _ & A & B). auto. Qed.
Theorem C09_ihave_followed_gated : forall P g log en p ih a pr asked,
  reach P g log -> In en log -> e_op en = GRecvIHave p ih a pr -> In (OIWant p asked) (e_out en) ->
  gGossipThr P <= score_of (e_sc en) p /\ accept_from P (e_sc en) (e_pre en) p = true.
Proof. intros P g log en p ih a pr asked H1 H2 H3 H4. destruct (iwant_requests _ _ _ _ _ _ _ _ _ H1 H2 H3 H4) as (_ & _ & _ & A & B). auto. Qed.

(* publish threshold: flood publishing reaches a non-direct peer only at or above it (C06_recipients
   gives the exact set); a new fanout contains only peers at or above it; after the heartbeat's fanout
   maintenance everybody left in the fanout is at or above it *)
Theorem C09_flood_publish_threshold : forall P sc g m ch g' r q,
  recipients P sc g m ch = Some (g', r) -> own_flood P m = true -> In q r ->
  In q (direct (core g)) \/ pPublishThr (gCore P) <= score_of sc q.
Proof.
  intros P sc g m ch g' r q H Hf Hq. apply (recipients_In _ _ _ _ _ _ _ H) in Hq. rewrite Hf in Hq. apply Hq.
Qed.
Theorem C09_new_fanout_threshold : forall P sc g t ch g' gm q,
  fanout_for_publishing P sc g t ch = Some (g', gm) -> aget_l t (fanout (core g)) = [] -> In q gm ->
  pPublishThr (gCore P) <= score_of sc q.
Proof.
  intros P sc g t ch g' gm q H He Hq. destruct (fanout_for_publishing_spec _ _ _ _ _ _ _ H) as (_ & _ & _ & _ & _ & _ & [[Hne _]|(_ & _ & _ & _ & Hall)]).
  - contradiction.
  - apply Hall. exact Hq.
Qed.
Theorem C09_fanout_dropped_below_threshold : forall P sc s t added s' p,
  hb_fanout P sc s t added = Some s' -> In p (aget_l t (fanout s')) -> pPublishThr P <= score_of sc p.
Proof. intros P sc s t added s' p H Hp. destruct (hb_fanout_spec _ _ _ _ _ _ H) as [_ F]. apply (F p Hp). Qed.

(* negative score: never grafted (Join, and every grafting phase of the heartbeat), its GRAFT is refused
   with a PRUNE and a backoff while the mesh stays as it was, and it is pruned, without peer exchange,
   at the next heartbeat *)
Theorem C09_join_never_grafts_negative : forall P sc s t ch s' c p,
  join P sc s t ch = Some (s', c) -> aget t (mesh s) = None -> In p (aget_l t (mesh s')) -> 0 <= score_of sc p.
Proof. exact join_never_grafts_negative. Qed.
Theorem C09_heartbeat_mesh_nonnegative : forall P sc s t evs s' gr pr npx,
  hb_topic P sc s t evs = Some (s', gr, pr, npx) -> forall p, In p (aget_l t (mesh s')) -> 0 <= score_of sc p.
Proof. exact hb_no_negative. Qed.
Theorem C09_negative_score_graft_refused : forall P sc s p t gm,
  aget t (mesh s) = Some gm -> memb p gm = false -> memb p (direct s) = false -> score_of sc p < 0 ->
  exists s' pen, handle_graft1 P sc s p t = (s', true, pen) /\ mesh s' = mesh s.
Proof. exact negative_score_graft_refused. Qed.
Theorem C09_heartbeat_prunes_negative_without_px : forall P sc s t evs s' gr pr npx g0 p,
  hb_topic P sc s t evs = Some (s', gr, pr, npx) -> aget t (mesh s) = Some g0 -> In p g0 -> score_of sc p < 0 ->
  In p npx /\ In p pr /\ ~ In p (aget_l t (mesh s')).
Proof. exact hb_prunes_negative_without_px. Qed.
Print Assumptions C09_heartbeat_prunes_negative_without_px.

(* the validation-overload gater only ever suppresses payload messages, never control traffic: it never answers
   AcceptNone, and under either of its answers the control part (and the subscriptions) of the RPC are processed *)
Theorem C09_gater_never_none : forall P g st coin, gater_accept P g st coin <> AcceptNone.
Proof. exact gater_never_none. Qed.
Theorem C09_gater_only_suppresses_payload : forall P g st coin,
  p_control (dispatch (gater_accept P g st coin)) = true /\ p_subs (dispatch (gater_accept P g st coin)) = true.
Proof. exact gater_only_suppresses_payload. Qed.
Theorem C09_direct_accept_all : forall score gl gate, router_accept true score gl gate = AcceptAll.
Proof. exact direct_accept_all. Qed.
Theorem C09_graylisted_none : forall score gl gate, (score < gl)%Z -> router_accept false score gl gate = AcceptNone.
Proof. exact graylisted_none. Qed.
Theorem C09_not_graylisted_control_processed : forall score gl P g st coin,
  (gl <= score)%Z -> p_control (dispatch (router_accept false score gl (Some (gater_accept P g st coin)))) = true.
Proof. exact not_graylisted_control_processed. Qed.
(* peer exchange: a record is followed only if the pruning peer is at or above the accept-PX threshold, the advertised
   peer is not already connected, and the signed record - when there is one - is valid for the advertised id *)
Theorem C09_px_only_if : forall score thr conn r,
  px_followed score thr conn r = true -> (thr <= score)%Z /\ r <> PxInvalid /\ conn = false.
Proof. exact px_only_if. Qed.
(* a GRAFT from a peer with a negative score never admits it, and the PRUNE that refuses it carries no peer exchange;
   the heartbeat's PRUNE of a negative-score mesh member carries none either *)
Theorem C09_negative_graft_refused : forall doPX spx cands d o gs,
  let '(pr, adm, px) := graft_reply doPX spx cands d true o gs in
  forallb negb adm = true /\ (existsb (fun b => b) pr = true -> px = false).
Proof. exact negative_graft_refused. Qed.
Theorem C09_negative_hb_prune_no_px : forall doPX spx cands, hb_prune_px doPX spx cands true = false.
Proof. exact negative_hb_prune_no_px. Qed.
Print Assumptions C09_gater_only_suppresses_payload.

(* ---- non-vacuity ---- *)
Local Close Scope Z_scope.
Definition RP : params :=
  {| pD := 2; pDlo := 1; pDhi := 3; pDscore := 1; pDout := 0; pOGTicks := 1; pOGPeers := 1; pOGThreshold := 2%Z;
     pPruneBackoff := 60%Z; pUnsubBackoff := 10%Z; pGraftFlood := 10%Z; pSlack := 2%Z; pFanoutTTL := 60%Z; pPublishThr := (-3)%Z |}.
Definition GP : gparams :=
  {| gCore := RP; gHistLen := 3; gHistGossip := 2; gDlazy := 1; gFactorNum := 1; gFactorDen := 4;
     gMaxIHaveLen := 2; gMaxIHaveMsgs := 3; gRetrans := 1; gMaxIDWMsgs := 1; gMaxIDWLen := 2; gIDWTTL := 2; gIDWThr := 100;
     gGossipThr := (-2)%Z; gGraylistThr := (-5)%Z; gFollowup := 3%Z; gFlood := true |}.
Definition pg := {| pi_mesh := true; pi_px := true; pi_out := false |}.
Definition m1 := {| m_id := 100; m_topic := 0; m_size := 20; m_from := None; m_author := None |}.
Definition ok : list (peer * Z) := [].
(* 2 drops below zero (pruned at the heartbeat), 3 is below the gossip threshold, 4 is graylisted *)
Definition bad : list (peer * Z) := [(2, (-1)%Z); (3, (-3)%Z); (4, (-6)%Z)].
Definition hist3 : list (list (peer * Z) * gop) :=
  [(ok, GAddPeer 1 pg true); (ok, GCore (OSub 1 0)); (ok, GAddPeer 2 pg true); (ok, GCore (OSub 2 0));
   (ok, GAddPeer 3 pg true); (ok, GCore (OSub 3 0)); (ok, GAddPeer 4 pg true); (ok, GCore (OSub 4 0));
   (ok, GCore (OJoin 0 [1; 2]));
   (bad, GPublish m1 []);                               (* flood publish: 4 is below the publish threshold *)
   (bad, GRecvIWant 3 [100]);                           (* unanswered *)
   (bad, GRecvIHave 3 [(0, [101])] [] None);            (* ignored *)
   (bad, GCore (ORecvGraft 4 [0]));                     (* graylisted: ignored entirely *)
   (bad, GCore (ORecvGraft 3 [0]));                     (* negative: refused with PRUNE *)
   (bad, GHeartbeat [(0, [HPrune 2])] [] [(0, [(2, [100])])])].        (* 2 pruned and, now outside the mesh and above the gossip threshold, gossiped to; 3 and 4 are not *)
Example C09_nonvacuous :
  exists g out, grun GP (ginit GP) hist3 = Some (g, out)
    /\ out = [OCtl (CGraft 1 0); OCtl (CGraft 2 0); OMsg 1 100; OMsg 2 100; OMsg 3 100;
              OCtl (CPrune 3 0 (Some 0%Z)); OCtl (CPrune 2 0 (Some 0%Z)); OIHave 2 0 [100]]
    /\ aget_l 0 (mesh (core g)) = [1].
Proof. eexists. eexists. vm_compute. repeat split. Qed.
