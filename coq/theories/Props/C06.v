(* C06 - every forwarded copy goes to exactly the peers the router rules require (gossipsub router).
   Property theorems only. *)
From Coq Require Import List ZArith Bool.
Import ListNotations.
From PS Require Import Model.Router Model.Gossip Model.Trace Model.SimpleRouters Proofs.GossipProofs Proofs.SimpleProofs.
Local Open Scope Z_scope.

(* The recipient set of one message, in every router state (reachable or not), for local and remote
   origin, with and without flood publishing:
   - never the peer it came from, never its author, never somebody who is neither subscribed to the
     topic nor a member of the eager-push overlay used (mesh when joined, fanout otherwise);
   - flood publishing of an own message: exactly the topic peers that are direct or at / above the
     publish threshold;
   - otherwise exactly: the direct peers in the topic, the floodsub-only peers in the topic at / above the
     publish threshold, and the overlay members that did not announce IDONTWANT for this message. *)
Theorem C06_recipients : forall P sc g m ch g' r,
  recipients P sc g m ch = Some (g', r) ->
  let s := core g in let t := m_topic m in let tm := aget_l t (tmap s) in
  (forall q, In q r -> excluded m q = false /\ (In q tm \/ In q (overlay g g' t)))
  /\ (aget t (tmap s) = None -> r = [])
  /\ (own_flood P m = true ->
        forall q, In q r <-> In q tm /\ excluded m q = false /\ (In q (direct s) \/ pPublishThr (gCore P) <= score_of sc q))
  /\ (own_flood P m = false -> aget t (tmap s) <> None ->
        forall q, excluded m q = false ->
          (In q (direct s) /\ In q tm -> In q r)
          /\ (In q tm /\ speaks_mesh s q = false /\ pPublishThr (gCore P) <= score_of sc q -> In q r)
          /\ (In q (overlay g g' t) /\ is_unwanted g q (m_id m) = false -> In q r)
          /\ (In q r -> (In q (direct s) /\ In q tm)
                        \/ (In q tm /\ speaks_mesh s q = false /\ pPublishThr (gCore P) <= score_of sc q)
                        \/ (In q (overlay g g' t) /\ is_unwanted g q (m_id m) = false))).
Proof. exact recipients_spec. Qed.
Print Assumptions C06_recipients.

(* copies are queued for exactly the recipients that have an outbound queue *)
Theorem C06_publish_sends : forall P sc g m ch g' r,
  publish P sc g m ch = Some (g', r) ->
  exists g1 r0, recipients P sc (put_state g m) m ch = Some (g1, r0) /\ g' = g1 /\ r = filter (has_queue g1) r0.
Proof. exact publish_sends. Qed.

(* when the topic is not joined: an existing fanout is used as it is (its members are kept and the
   last-published time refreshed); otherwise up to D distinct peers that are subscribed, speak gossipsub,
   are not direct and are at / above the publish threshold *)
Theorem C06_fanout_for_publishing : forall P sc g t ch g' gm,
  fanout_for_publishing P sc g t ch = Some (g', gm) ->
  aget_l t (fanout (core g')) = gm
  /\ aget t (lastpub (core g')) = Some (now (core g))
  /\ mesh (core g') = mesh (core g) /\ tmap (core g') = tmap (core g) /\ direct (core g') = direct (core g) /\ peers (core g') = peers (core g)
  /\ ((aget_l t (fanout (core g)) <> [] /\ gm = aget_l t (fanout (core g)))
      \/ (aget_l t (fanout (core g)) = [] /\ gm = ch /\ NoDup gm /\ (length gm <= pD (gCore P) \/ pD (gCore P) = 0)%nat
          /\ forall q, In q gm -> In q (aget_l t (tmap (core g))) /\ speaks_mesh (core g) q = true
                                  /\ ~ In q (direct (core g)) /\ pPublishThr (gCore P) <= score_of sc q)).
Proof. exact fanout_for_publishing_spec. Qed.

(* fanout maintenance at the heartbeat keeps every member that is still subscribed and at / above the
   publish threshold; everybody in the maintained fanout is subscribed and meets the threshold *)
Theorem C06_fanout_members_kept : forall P sc s t added s',
  hb_fanout P sc s t added = Some s' ->
  (forall p, In p (aget_l t (fanout s)) -> In p (aget_l t (tmap s)) -> pPublishThr P <= score_of sc p -> In p (aget_l t (fanout s')))
  /\ (forall p, In p (aget_l t (fanout s')) -> pPublishThr P <= score_of sc p /\ In p (aget_l t (tmap s))).
Proof. exact RouterProofs.hb_fanout_spec. Qed.

(* a local-only publication reaches nobody *)
Theorem C06_local_publication_sends_nothing : forall P sc g m g' out q i,
  gstep P sc g (GPublishLocal m) = Some (g', out) -> ~ In (OMsg q i) out.
Proof. exact local_publication_sends_nothing. Qed.
Print Assumptions C06_local_publication_sends_nothing.

(* ---- the two simple routers ---- *)
(* floodsub: exactly the topic peers with an outbound queue, minus the source and the author *)
Theorem C06_floodsub_recipients : forall s m q,
  In q (fs_recipients s m) <-> In q (aget_l (sm_topic m) (sr_tmap s)) /\ sexcl m q = false /\ has_q s q = true.
Proof. exact fs_recipients_spec. Qed.
(* randomsub: never the source, the author or a non-member; always every floodsub-only topic peer; all randomsub
   topic peers when at most RandomSubD are eligible, otherwise min(max(RandomSubD, ceil(sqrt(size))), #eligible) distinct ones *)
Theorem C06_randomsub_recipients : forall s size m chosen r tm,
  aget (sm_topic m) (sr_tmap s) = Some tm ->
  rs_recipients s size m chosen = Some r ->
  let rsp := filter (fun p => negb (is_fs s p)) (filter (fun p => negb (sexcl m p)) tm) in
  (forall q, In q r -> In q tm /\ sexcl m q = false /\ has_q s q = true)
  /\ (forall q, In q tm -> sexcl m q = false -> has_q s q = true -> is_fs s q = true -> In q r)
  /\ ((length rsp <= RandomSubD)%nat -> forall q, In q rsp -> has_q s q = true -> In q r)
  /\ ((RandomSubD < length rsp)%nat ->
        NoDup chosen /\ length chosen = Nat.min (Nat.max RandomSubD (csqrt size)) (length rsp)
        /\ (forall q, In q chosen -> In q rsp)
        /\ (forall q, In q r -> is_fs s q = false -> In q chosen)).
Proof. exact rs_recipients_spec. Qed.
Theorem C06_randomsub_no_topic : forall s size m chosen r,
  aget (sm_topic m) (sr_tmap s) = None -> rs_recipients s size m chosen = Some r -> r = [].
Proof. exact rs_no_topic. Qed.
Print Assumptions C06_randomsub_recipients.
(* a local-only publication goes to nobody under floodsub and randomsub alike *)
Theorem C06_simple_local_only_sends_nothing : forall rand size s m s' rc tr,
  srstep rand size s (RLocalOnly m) = Some (s', rc, tr) ->
  rc = [] /\ (forall q, ~ In (TSend q) tr) /\ sr_peers s' = sr_peers s /\ sr_tmap s' = sr_tmap s /\ sr_joined s' = sr_joined s.
Proof. exact local_only_sends_nothing. Qed.
Print Assumptions C06_simple_local_only_sends_nothing.

(* ---- non-vacuity ---- *)
Local Close Scope Z_scope.
Definition RP : params :=
  {| pD := 2; pDlo := 1; pDhi := 3; pDscore := 1; pDout := 0; pOGTicks := 1; pOGPeers := 1; pOGThreshold := 2%Z;
     pPruneBackoff := 60%Z; pUnsubBackoff := 10%Z; pGraftFlood := 10%Z; pSlack := 2%Z; pFanoutTTL := 60%Z; pPublishThr := (-3)%Z |}.
Definition GP : gparams :=
  {| gCore := RP; gHistLen := 3; gHistGossip := 2; gDlazy := 1; gFactorNum := 1; gFactorDen := 4;
     gMaxIHaveLen := 2; gMaxIHaveMsgs := 3; gRetrans := 1; gMaxIDWMsgs := 1; gMaxIDWLen := 2; gIDWTTL := 2; gIDWThr := 100;
     gGossipThr := (-2)%Z; gGraylistThr := (-5)%Z; gFollowup := 3%Z; gFlood := false |}.
Definition pg := {| pi_mesh := true; pi_px := true; pi_out := false |}.
Definition pf := {| pi_mesh := false; pi_px := false; pi_out := false |}.
(* 1, 2: mesh; 3: gossipsub non-mesh; 4: floodsub; 5: floodsub below the publish threshold; 6: direct;
   message 200 arrives from 1 with author 6, after 2 said IDONTWANT *)
Definition m2 := {| m_id := 200; m_topic := 0; m_size := 20; m_from := Some 1; m_author := Some 6 |}.
Definition m3 := {| m_id := 201; m_topic := 0; m_size := 20; m_from := Some 3; m_author := None |}.
Definition sc1 : list (peer * Z) := [(5, (-4)%Z)].
Definition hist2 : list (list (peer * Z) * gop) :=
  [(sc1, GAddPeer 1 pg true); (sc1, GCore (OSub 1 0)); (sc1, GAddPeer 2 pg true); (sc1, GCore (OSub 2 0));
   (sc1, GAddPeer 3 pg true); (sc1, GCore (OSub 3 0)); (sc1, GAddPeer 4 pf false); (sc1, GCore (OSub 4 0));
   (sc1, GAddPeer 5 pf false); (sc1, GCore (OSub 5 0)); (sc1, GAddPeer 6 pg true); (sc1, GCore (OSub 6 0));
   (sc1, GCore (OAddDirect 6)); (sc1, GCore (OJoin 0 [1; 2]));
   (sc1, GRecvIDontWant 2 [[201]]);
   (sc1, GRecvMsgs 1 [m2] []); (sc1, GRecvMsgs 3 [m3] [])].
Example C06_nonvacuous :
  exists g out, grun GP (ginit GP) hist2 = Some (g, out)
    /\ out = [OCtl (CGraft 1 0); OCtl (CGraft 2 0);
              OMsg 4 200; OMsg 2 200;            (* not 1 (source), not 6 (author), not 5 (threshold), not 3 (non-mesh) *)
              OMsg 6 201; OMsg 4 201; OMsg 1 201] (* not 2 (IDONTWANT), not 3 (source) *).
Proof. eexists. eexists. vm_compute. repeat split. Qed.
