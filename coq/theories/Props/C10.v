(* C10 - peer scores equal the GossipSub v1.1 scoring function of the peer's history. Property theorems only.
   The scoring function IS Model/Score.v (topic_score, score_of_stats and the event-driven counters),
   compared bit-for-bit with score.go on every run (Run/ScoreRun.v, binary64 instance).  The theorems below
   are about its exact-rational instance QA. *)
From Coq Require Import List ZArith Bool QArith Floats Lqa.
Import ListNotations.
From PS Require Import Model.Router Model.Score Proofs.ScoreProofs Proofs.ScoreParams Run.ScoreRun.

(* counters never become negative or exceed their caps: in every state reachable by any history of
   scoring events (connect, disconnect, reconnect, graft, prune, validate, deliver, reject with each reason,
   duplicates, penalties, decay ticks, gc, parameter updates that lower or raise caps, IP assignments,
   arbitrary virtual times) from valid parameters *)
Theorem C10_counters_bounded : forall P l s p ps t ts,
  sp_ok P -> ops_ok l -> srun QA (sinit QA P) l = Some s ->
  In (p, ps) (pst QA s) -> In (t, ts) (topics QA ps) ->
  0 <= bp QA ps /\ 0 <= fmd QA ts /\ 0 <= mmd QA ts /\ 0 <= imd QA ts /\ 0 <= mfp QA ts
  /\ exists tp, aget t (spTopics QA (prm QA s)) = Some tp /\ fmd QA ts <= tpFMDCap QA tp /\ mmd QA ts <= tpMMDCap QA tp.
Proof. exact counters_bounded. Qed.
Print Assumptions C10_counters_bounded.

(* the caps the counters are bounded by are those in force AFTER each operation, and these depend on the operation alone
   (in any arithmetic): the runner judges every observed step against [prm_after] *)
Theorem C10_params_after_step : forall A s o s', sstep A s o = Some s' -> prm A s' = prm_after A (prm A s) o.
Proof. exact prm_after_step. Qed.

(* penalty components only ever lower the score *)
Theorem C10_topic_penalties_only_lower : forall (tp : tparams QA) (ts : tstats QA),
  tp_ok tp -> 0 <= mfp QA ts -> topic_score QA tp ts <= topic_score QA tp (no_penalties ts).
Proof. exact topic_penalties_only_lower. Qed.
Theorem C10_p6_nonpositive : forall (s : sstate QA) ps, sp_ok (prm QA s) -> ip_factor QA s ps * spIPWeight QA (prm QA s) <= 0.
Proof. exact p6_nonpositive. Qed.
Theorem C10_p7_nonpositive : forall (P : sparams QA) (b : Q), sp_ok P -> p7 QA P b <= 0.
Proof. exact p7_nonpositive. Qed.

(* time in mesh is quantised (whole quanta) and capped *)
Theorem C10_p1_quantised_and_capped : forall (tp : tparams QA) (mt : Z),
  tp_ok tp -> (0 < tpTIMQuantum QA tp)%Z -> (0 <= mt)%Z ->
  let p1 := cap_at QA (inject_Z (Z.quot mt (tpTIMQuantum QA tp))) (tpTIMCap QA tp) in
  0 <= p1 /\ p1 <= tpTIMCap QA tp /\ p1 <= inject_Z (Z.quot mt (tpTIMQuantum QA tp))
  /\ (inject_Z (Z.quot mt (tpTIMQuantum QA tp)) * inject_Z (tpTIMQuantum QA tp) <= inject_Z mt).
Proof. exact p1_quantised_and_capped. Qed.

(* periodic decay with decay-to-zero *)
Theorem C10_decay_to_zero : forall (x d z : Q), 0 <= x -> 0 <= d <= 1 ->
  0 <= decay0 QA x d z <= x /\ (x * d < z -> decay0 QA x d z == 0) /\ (z <= x * d -> decay0 QA x d z == x * d).
Proof. exact decay_to_zero. Qed.

(* mesh deliveries count only inside the delivery window *)
Theorem C10_duplicate_outside_window_ignored : forall (s : sstate QA) p t v tp,
  aget t (spTopics QA (prm QA s)) = Some tp -> (tpMMDWindow QA tp < snow QA s - v)%Z ->
  forall ps, aget p (pst QA s) = Some ps -> forall ts, aget t (topics QA ps) = Some ts ->
  exists ps', aget p (pst QA (mark_duplicate QA s p t (Some v))) = Some ps' /\ aget t (topics QA ps') = Some ts.
Proof. exact duplicate_outside_window_ignored. Qed.

(* retention *)
Theorem C10_retention_rule : forall (s : sstate QA) p app ps s',
  aget p (pst QA s) = Some ps -> sstep QA s (SRemovePeer QA p app) = Some s' ->
  (0 < score_of_stats QA s app ps -> aget p (pst QA s') = None \/ exists ps', aget p (pst QA s') = Some ps' /\ In (p, ps') (adel p (pst QA s)))
  /\ (score_of_stats QA s app ps <= 0 ->
        exists ps', aget p (pst QA s') = Some ps' /\ connected QA ps' = false /\ expire QA ps' = (snow QA s + spRetain QA (prm QA s))%Z
                    /\ bp QA ps' = bp QA ps
                    /\ forall t ts', In (t, ts') (topics QA ps') -> fmd QA ts' == 0 /\ inMesh QA ts' = false).
Proof. exact retention_rule. Qed.
Theorem C10_reconnect_keeps_retained : forall (s : sstate QA) p ps s',
  aget p (pst QA s) = Some ps -> sstep QA s (SAddPeer QA p) = Some s' ->
  exists ps', aget p (pst QA s') = Some ps' /\ connected QA ps' = true /\ topics QA ps' = topics QA ps /\ bp QA ps' = bp QA ps.
Proof. exact reconnect_keeps_retained. Qed.
Theorem C10_refresh_retained : forall (s : sstate QA) p ps s',
  In (p, ps) (pst QA s) -> connected QA ps = false -> sstep QA s (SRefresh QA) = Some s' ->
  ((expire QA ps < snow QA s)%Z -> ~ In (p, ps) (pst QA s'))
  /\ ((snow QA s <= expire QA ps)%Z -> In (p, ps) (pst QA s')).
Proof. exact refresh_retained. Qed.
Print Assumptions C10_retention_rule.

(* "for every parameter set the library accepts computing a score never yields NaN" is FALSE of the faithful
   binary64 model (and of the code: known finding C10/nan-from-huge-weights): finite weights near the float64
   maximum are accepted and make one component +Inf and another -Inf. *)
Definition nanP : sparams FA :=
  mkSP [] 0%float (0x1.e42d130773b76p+1023)%float 0%float 1%nat (-0x1.e42d130773b76p+1023)%float 0%float (0x1p-1)%float (0x1p-7)%float 0%Z 0%Z.
Definition nanS : sstate FA :=
  Eval vm_compute in match srun FA (sinit FA nanP) [fAddPeer 0%nat; fPenalty 0%nat 2%Z] with Some s => s | None => sinit FA nanP end.
Theorem C10_never_nan_refuted :
  exists P l app s, srun FA (sinit FA P) l = Some s /\ PrimFloat.is_nan (score FA s app 0%nat) = true.
Proof.
  exists nanP, [fAddPeer 0%nat; fPenalty 0%nat 2%Z], [(0%nat, 2%float)], nanS.
  split; reflexivity.
Qed.
Print Assumptions C10_never_nan_refuted.

(* ---- non-vacuity (exact rationals) ---- *)
Definition tq : tparams QA :=
  Build_tparams QA 1 (1#2) 1000%Z 3 1 (1#2) 2 (-1) (1#2) 4 2 2000%Z 1000%Z (-1) (1#2) (-1) (1#2).
Definition pq : sparams QA := Build_sparams QA [(0%nat, tq)] 0 1 (-1) 1%nat (-1) 1 (1#2) (1#100) 5000%Z 5000%Z.
Lemma tq_ok : tp_ok tq.
Proof. constructor; cbn; lra. Qed.
Lemma pq_ok : sp_ok pq.
Proof.
  constructor; cbn; try lra. intros t tp. destruct t as [|t]; cbn; [intros E; inversion E; exact tq_ok | discriminate].
Qed.
Definition hist10 : list (sop QA) :=
  [SAddPeer QA 1%nat; SGraft QA 1%nat 0%nat; SDeliver QA 7%nat 1%nat 0%nat; SDeliver QA 8%nat 1%nat 0%nat; SDeliver QA 9%nat 1%nat 0%nat;
   SAdvance QA 2500%Z; SRefresh QA; SReject QA 10%nat 1%nat 0%nat ROther; SPrune QA 1%nat 0%nat; SRemovePeer QA 1%nat 0].
Example C10_nonvacuous :
  exists s, srun QA (sinit QA pq) hist10 = Some s
    /\ exists ps ts, aget 1%nat (pst QA s) = Some ps /\ connected QA ps = false /\ aget 0%nat (topics QA ps) = Some ts
                     /\ fmd QA ts == 0 /\ mmd QA ts == (3#2) /\ imd QA ts == 1 /\ mfp QA ts == (1#4).
Proof.
  (* The run is evaluated once, lazily, against a witness in which [QA] stays folded: a normal form read back
     by vm_compute carries the unfolded arithmetic record under every constructor, and is slow to check. *)
  set (r := srun QA (sinit QA pq) hist10).
  assert (E : match r with Some s => aget 1%nat (pst QA s) | None => None end
              = Some (Build_pstats QA false 7500 [(0%nat, Build_tstats QA false 0 2500 0 (3#2) true (1#4) 1)] [] 0)) by reflexivity.
  destruct r as [s|]; [|discriminate]. exists s. split; [reflexivity|].
  do 2 eexists. repeat split; [exact E | reflexivity ..].
Qed.
