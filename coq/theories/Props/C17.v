(* C17 - gossip stays within its protocol bounds and message-cache windows. Property theorems only. *)
From Coq Require Import List ZArith Bool Lia.
Import ListNotations.
From PS Require Import Model.Router Model.Gossip Proofs.McacheProofs Proofs.GossipProofs.
Local Open Scope Z_scope.

(* (1) The message cache alone, for EVERY sequence of put / get-for-peer / shift operations: a fresh id
   stays retrievable through IWANT for exactly HistoryLength shifts and is in the gossip (IHAVE) window
   of its own topic only, for exactly the first HistoryGossip of them. *)
Theorem C17_mcache_window : forall HL HG c i t l p,
  (0 < HL)%nat -> (HG <= HL)%nat -> Gone HL c i ->
  forallb (fun o => negb (puts_id i o)) l = true ->
  let c' := mrun (mc_put c i t) l in
  (retrievable c' i p = true <-> (shifts l < HL)%nat)
  /\ (In i (mc_gossip_ids c' HG t) <-> (shifts l < HG)%nat)
  /\ (forall t', In i (mc_gossip_ids c' HG t') -> t' = t).
Proof. exact mcache_window. Qed.
Print Assumptions C17_mcache_window.

(* (1') the same along router histories: after ANY history following the publication of an unseen
   message (forwards, IHAVE / IWANT / IDONTWANT traffic, joins, heartbeats, ...), the message is
   retrievable iff fewer than HistoryLength heartbeats went by, advertised iff fewer than HistoryGossip. *)
Theorem C17_published_message_window : forall P g0 log sc0 m ch g out0 l g' out p,
  (0 < gHistLen P)%nat -> (gHistGossip P <= gHistLen P)%nat ->
  reach P g0 log -> memb (m_id m) (seen g0) = false ->
  gstep P sc0 g0 (GPublish m ch) = Some (g, out0) ->
  grun P g l = Some (g', out) ->
  (retrievable (mc g') (m_id m) p = true <-> (hbs l < gHistLen P)%nat)
  /\ (In (m_id m) (mc_gossip_ids (mc g') (gHistGossip P) (m_topic m)) <-> (hbs l < gHistGossip P)%nat).
Proof. exact published_message_window. Qed.
Print Assumptions C17_published_message_window.

(* (2) IHAVE goes only to non-mesh (non-fanout), non-direct topic peers that speak gossipsub and are at
   or above the gossip threshold, with at most MaxIHaveLength ids, all from the gossip window. *)
Theorem C17_ihave_emission : forall P sc g obs fobs gobs g' out q t ids,
  gstep P sc g (GHeartbeat obs fobs gobs) = Some (g', out) -> In (OIHave q t ids) out ->
  exists c excl,
    core g' = c
    /\ (aget t (mesh c) = Some excl \/ (aget t (mesh c) = None /\ aget t (fanout c) = Some excl))
    /\ In q (aget_l t (tmap c)) /\ ~ In q excl /\ ~ In q (direct c) /\ speaks_mesh c q = true
    /\ gGossipThr P <= score_of sc q
    /\ (length ids <= gMaxIHaveLen P)%nat
    /\ forall i, In i ids -> In i (mc_gossip_ids (mc g) (gHistGossip P) t).
Proof. exact ihave_emission. Qed.

(* (3) over every history a peer is served the same message at most GossipRetransmission times ... *)
Theorem C17_served_at_most_retransmission : forall P g log p i,
  reach P g log -> (served_cnt log p i <= gRetrans P)%nat.
Proof. intros P g log p i H. apply (SI_reach P g log H p i). Qed.
Print Assumptions C17_served_at_most_retransmission.
(* ... only while it is cached, and never a message the peer declared unwanted *)
Theorem C17_iwant_answers : forall P g log en p ids i,
  reach P g log -> In en log -> e_op en = GRecvIWant p ids -> In (OMsg p i) (e_out en) ->
  In i ids /\ memb i (mmsgs (mc (e_pre en))) = true /\ is_unwanted (e_pre en) p i = false
  /\ gGossipThr P <= score_of (e_sc en) p /\ accept_from P (e_sc en) (e_pre en) p = true.
Proof. exact iwant_answers. Qed.

(* (4) the node requests only ids it has not seen, that the peer advertised, without duplicates ... *)
Theorem C17_iwant_requests : forall P g log en p ih a pr asked,
  reach P g log -> In en log -> e_op en = GRecvIHave p ih a pr -> In (OIWant p asked) (e_out en) ->
  asked = a /\ NoDup asked
  /\ (forall i, In i asked -> memb i (seen (e_pre en)) = false /\ exists t ids, In (t, ids) ih /\ In i ids)
  /\ gGossipThr P <= score_of (e_sc en) p /\ accept_from P (e_sc en) (e_pre en) p = true.
Proof. exact iwant_requests. Qed.
(* ... at most MaxIHaveLength of them per peer between two heartbeats, answering at most
   MaxIHaveMessages IHAVEs per peer between two heartbeats *)
Theorem C17_asked_per_heartbeat_bounded : forall P g log p,
  reach P g log -> (since_hb (asked_in p) log <= gMaxIHaveLen P)%nat.
Proof. intros P g log p H. destruct (CI_reach P g log H p) as (C1 & C2 & _). lia. Qed.
Theorem C17_ihave_honoured_per_heartbeat_bounded : forall P g log p,
  reach P g log -> (since_hb (honoured_in p) log <= gMaxIHaveMsgs P)%nat.
Proof. intros P g log p H. apply (CI_reach P g log H p). Qed.
Print Assumptions C17_asked_per_heartbeat_bounded.

(* (5) IDONTWANT received: an IDONTWANT is either ignored or counted; when counted the counter was below
   MaxIDontWantMessages, and exactly the first MaxIDontWantLength ids are recorded with the TTL. The
   counter never exceeds the cap and is reset only by the heartbeat. *)
Theorem C17_idontwant_honoured : forall P g p idws,
  let g' := handle_idontwant P g p idws in
  g' = g \/
  (idws <> [] /\ (cget p (peerdontwant g) < gMaxIDWMsgs P)%nat /\ peerdontwant g' = bump p (peerdontwant g)
   /\ forall q i, uttl g' q i = if Nat.eqb q p && memb i (firstn (gMaxIDWLen P) (concat idws)) then Some (gIDWTTL P) else uttl g q i).
Proof. exact idontwant_spec. Qed.
Theorem C17_idontwant_counter_bounded : forall P g log p,
  reach P g log -> (cget p (peerdontwant g) <= gMaxIDWMsgs P)%nat.
Proof. intros P g log p H. exact (idontwant_counter_bounded P g log H p). Qed.
Theorem C17_heartbeat_resets_counters : forall P sc g obs fobs gobs g' out,
  gstep P sc g (GHeartbeat obs fobs gobs) = Some (g', out) ->
  peerhave g' = [] /\ iasked g' = [] /\ peerdontwant g' = [].
Proof. intros P sc g obs fobs gobs g' out H. destruct (hb_state P sc g (GHeartbeat obs fobs gobs) g' out eq_refl H) as [c ->]. repeat split. Qed.
(* ... and is forgotten after exactly its TTL in heartbeats, whatever else happens meanwhile *)
Theorem C17_idontwant_ttl : forall P p i l g g' out n,
  UK g -> uttl g p i = Some n -> (1 <= n)%nat -> forallb (fun e => quiet_for p (snd e)) l = true ->
  grun P g l = Some (g', out) ->
  uttl g' p i = if Nat.ltb (hbs l) n then Some (n - hbs l)%nat else None.
Proof. exact idontwant_ttl. Qed.
Theorem C17_unwanted_keys_unique_reachable : forall P g log, reach P g log -> UK g.
Proof. exact UK_reach. Qed.
Print Assumptions C17_idontwant_ttl.

(* (6) IDONTWANT sent: only for messages at or above the size threshold, only to mesh peers of the
   message's topic that speak v1.2+ and have a queue, never to the sender. *)
Theorem C17_idontwant_sent : forall P g from msgs q t ids,
  In (q, t, ids) (idontwant_targets P g from msgs) ->
  q <> from /\ memb q (idw_peers g) = true /\ In q (aget_l t (mesh (core g))) /\ has_queue g q = true
  /\ ids <> []
  /\ forall i, In i ids -> exists m, In m msgs /\ m_id m = i /\ m_topic m = t /\ (gIDWThr P <= m_size m)%nat.
Proof. exact idontwant_sent_spec. Qed.

(* (7) a peer is penalised for broken promises only at a heartbeat, by exactly the number of its
   promises that are past their deadline; each of those was for an id the node really requested from
   that peer (deadline = request time + follow-up time) and that has still not arrived from anyone. *)
Theorem C17_penalty_only_if_never_arrived : forall P g log sc obs fobs gobs g' out p n,
  reach P g log -> gstep P sc g (GHeartbeat obs fobs gobs) = Some (g', out) -> In (OPenalty p n) out ->
  n = length (filter (fun e => (snd e <? now (core g)) && Nat.eqb p (snd (fst e))) (promises g))
  /\ (0 < n)%nat
  /\ forall i e, In ((i, p), e) (promises g) ->
       memb i (seen g) = false
       /\ exists en ih a pr, In en log /\ e_op en = GRecvIHave p ih a pr /\ In (OIWant p a) (e_out en) /\ In i a
                             /\ e = now (core (e_pre en)) + gFollowup P.
Proof. exact penalty_only_if_never_arrived. Qed.
Print Assumptions C17_penalty_only_if_never_arrived.

(* ---- non-vacuity: a concrete history that exercises the hypotheses ---- *)
Local Close Scope Z_scope.
Definition RP : params :=
  {| pD := 2; pDlo := 1; pDhi := 3; pDscore := 1; pDout := 0; pOGTicks := 1; pOGPeers := 1; pOGThreshold := 2%Z;
     pPruneBackoff := 60%Z; pUnsubBackoff := 10%Z; pGraftFlood := 10%Z; pSlack := 2%Z; pFanoutTTL := 60%Z; pPublishThr := (-3)%Z |}.
Definition GP : gparams :=
  {| gCore := RP; gHistLen := 3; gHistGossip := 2; gDlazy := 1; gFactorNum := 1; gFactorDen := 4;
     gMaxIHaveLen := 2; gMaxIHaveMsgs := 3; gRetrans := 1; gMaxIDWMsgs := 1; gMaxIDWLen := 2; gIDWTTL := 2; gIDWThr := 10;
     gGossipThr := (-2)%Z; gGraylistThr := (-5)%Z; gFollowup := 3%Z; gFlood := false |}.
Definition pg := {| pi_mesh := true; pi_px := true; pi_out := false |}.
Definition m1 := {| m_id := 100; m_topic := 0; m_size := 20; m_from := None; m_author := None |}.
Definition hist1 : list (list (peer * Z) * gop) :=
  [([], GAddPeer 1 pg true); ([], GCore (OSub 1 0)); ([], GAddPeer 2 pg true); ([], GCore (OSub 2 0));
   ([], GAddPeer 3 pg true); ([], GCore (OSub 3 0));
   ([], GCore (OJoin 0 [1; 2])); ([], GPublish m1 []);
   ([], GRecvIWant 3 [100]); ([], GRecvIWant 3 [100]);
   ([], GRecvIHave 3 [(0, [101; 102; 103])] [101; 102] (Some 101));
   ([], GRecvIDontWant 1 [[100; 7; 8]]);
   ([], GCore (OAdvance 10%Z)); ([], GHeartbeat [] [] [(0, [(3, [100])])])].
(* peer 3 asks twice for message 100 and is served once (GossipRetransmission = 1); the IHAVE with three
   ids is answered with an IWANT for two (MaxIHaveLength = 2); the IDONTWANT with three ids records two
   (MaxIDontWantLength = 2) which have one heartbeat left after the heartbeat; the promise for 101 is
   broken (follow-up 3 < 10) and penalised; message 100 is advertised to the only non-mesh peer. *)
Example C17_nonvacuous :
  exists g out, grun GP (ginit GP) hist1 = Some (g, out)
    /\ out = [OCtl (CGraft 1 0); OCtl (CGraft 2 0); OIDontWant 1 0 [100]; OIDontWant 2 0 [100];
              OMsg 1 100; OMsg 2 100; OMsg 3 100; OIWant 3 [101; 102]; OPenalty 3 1; OIHave 3 0 [100]]
    /\ uttl g 1 100 = Some 1 /\ uttl g 1 7 = Some 1 /\ uttl g 1 8 = None.
Proof. eexists. eexists. vm_compute. repeat split. Qed.
