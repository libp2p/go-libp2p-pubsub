From Coq Require Import List Bool.
From PS Require Import Model.SignPolicy.

Section Proofs.
  Variables (bytes pid pubkey privkey : Type).
  Variable bytes_eqb : bytes -> bytes -> bool.
  Variable pid_of_bytes : bytes -> option pid.
  Variable extract : pid -> option pubkey.
  Variable unmarshal_key : bytes -> option pubkey.
  Variable matches : pid -> pubkey -> bool.
  Variable verify : pubkey -> bytes -> bytes -> bool.
  Variable signed_payload : msg bytes -> bytes.

  Notation accept := (accept bytes pid pubkey bytes_eqb pid_of_bytes extract unmarshal_key matches verify signed_payload).
  Notation verify_signature := (verify_signature bytes pid pubkey pid_of_bytes extract unmarshal_key matches verify signed_payload).
  Notation message_pubkey := (message_pubkey bytes pid pubkey pid_of_bytes extract unmarshal_key matches).

  (* the signature gate: the four earlier rejections aside, a present signature is verified under every policy *)
  Lemma accepted_signature_verifies p anon self src_self m :
    accept p anon self src_self m = Accepted -> present (m_sig m) = true -> verify_signature m = true.
  Proof.
    unfold SignPolicy.accept. intros H S. rewrite S in H. destruct (verify_signature m); [reflexivity|]. cbn [negb andb] in H.
    do 4 (match type of H with (if ?c then _ else _) = _ => destruct c; [discriminate|] end). discriminate.
  Qed.

  (* under every policy: an accepted message that carries a signature carries one that verifies,
     over its contents with the signing prefix, under the key bound to its claimed author *)
  Theorem signed_accepted_verifies p anon self src_self m :
    accept p anon self src_self m = Accepted -> present (m_sig m) = true ->
    exists f a k s, m_from m = Some f /\ pid_of_bytes f = Some a /\ message_pubkey m = Some k /\ m_sig m = Some s
                    /\ verify k (signed_payload m) s = true
                    /\ match m_key m with
                       | None => extract a = Some k
                       | Some kb => unmarshal_key kb = Some k /\ matches a k = true
                       end.
  Proof.
    intros H S. pose proof (accepted_signature_verifies _ _ _ _ _ H S) as V. unfold SignPolicy.verify_signature in V.
    destruct (message_pubkey m) as [k|] eqn:Ek; [|discriminate]. destruct (m_sig m) as [s|]; [|discriminate].
    pose proof Ek as Ek'. unfold SignPolicy.message_pubkey in Ek'.
    destruct (m_from m) as [f|]; [|discriminate]. destruct (pid_of_bytes f) as [a|] eqn:Ea; [|discriminate].
    exists f, a, k, s. do 5 (split; [reflexivity || assumption|]).
    destruct (m_key m) as [kb|]; [|exact Ek'].
    destruct (unmarshal_key kb) as [k'|]; [|discriminate]. destruct (matches a k') eqn:Em; [|discriminate].
    injection Ek' as ->. auto.
  Qed.

  (* strict signing: nothing without a signature is accepted *)
  Theorem strict_requires_signature anon self src_self m :
    accept StrictSign anon self src_self m = Accepted -> present (m_sig m) = true.
  Proof. unfold SignPolicy.accept. cbn. destruct (present (m_sig m)); [reflexivity|discriminate]. Qed.

  (* strict no-signing: a message carrying a signature is never accepted; in anonymous mode neither
     is one carrying an author, a sequence number or a key *)
  Theorem nosign_rejects_signature anon self src_self m :
    present (m_sig m) = true -> accept StrictNoSign anon self src_self m = Rejected RUnexpectedSignature.
  Proof. intros H. unfold SignPolicy.accept. cbn. now rewrite H. Qed.

  Theorem anonymous_rejects_auth_fields self src_self m :
    present (m_seqno m) || present (m_from m) || present (m_key m) = true ->
    accept StrictNoSign true self src_self m <> Accepted.
  Proof.
    intros H. unfold SignPolicy.accept. cbn. destruct (present (m_sig m)); [discriminate|]. cbn. rewrite H. discriminate.
  Qed.

  (* under every policy a message naming the local node as author that arrives from another peer is dropped *)
  Theorem self_origin_dropped p anon self m f :
    m_from m = Some f -> bytes_eqb f self = true -> accept p anon self false m <> Accepted.
  Proof.
    intros Hf He. unfold SignPolicy.accept. rewrite Hf, He. cbn [negb andb].
    do 3 (match goal with |- (if ?c then _ else _) <> _ => destruct c; [discriminate|] end). discriminate.
  Qed.

  (* tampering: whatever the other fields, a message is accepted with a signature only if that
     signature verifies over exactly the payload computed from the message as received *)
  Corollary tampered_payload_rejected p anon self src_self m k s :
    message_pubkey m = Some k -> m_sig m = Some s -> verify k (signed_payload m) s = false ->
    accept p anon self src_self m <> Accepted.
  Proof.
    intros Hk Hs Hv H. assert (V : verify_signature m = true) by (apply (accepted_signature_verifies _ _ _ _ _ H); now rewrite Hs).
    unfold SignPolicy.verify_signature in V. rewrite Hk, Hs, Hv in V. discriminate.
  Qed.

  (* sign.go signMessage: the key is attached only when the author id does not embed it *)
  Variable sign : privkey -> bytes -> bytes.
  Variable pub : privkey -> pubkey.
  Variable marshal_key : pubkey -> bytes.
  Variable pid_bytes : pid -> bytes.

  Definition sign_message (a : pid) (key : privkey) (m : msg bytes) : msg bytes :=
    {| m_from := m_from m; m_data := m_data m; m_seqno := m_seqno m; m_topic := m_topic m;
       m_sig := Some (sign key (signed_payload m));
       m_key := match extract a with None => Some (marshal_key (pub key)) | Some _ => None end;
       m_unk := m_unk m |}.

  Hypothesis sign_verify : forall key b, verify (pub key) b (sign key b) = true.
  Hypothesis pid_roundtrip : forall a, pid_of_bytes (pid_bytes a) = Some a.
  Hypothesis key_roundtrip : forall k, unmarshal_key (marshal_key k) = Some k.
  (* the payload is computed with Signature and Key cleared *)
  Hypothesis payload_ignores_sig_key : forall m s k,
    signed_payload {| m_from := m_from m; m_data := m_data m; m_seqno := m_seqno m; m_topic := m_topic m;
                      m_sig := s; m_key := k; m_unk := m_unk m |} = signed_payload m.

  Theorem own_messages_verify p anon self a key m :
    m_from m = Some (pid_bytes a) ->
    (* the signing key belongs to the author id: embedded in it, or matching it *)
    match extract a with Some pk => pk = pub key | None => matches a (pub key) = true end ->
    bytes_eqb (pid_bytes a) self = false ->
    (must_verify p = true -> must_sign p = true) ->
    accept p anon self false (sign_message a key m) = Accepted.
  Proof.
    intros Hf Hk Hs Hp.
    assert (V : verify_signature (sign_message a key m) = true).
    { unfold SignPolicy.verify_signature, SignPolicy.message_pubkey, sign_message. cbn [m_from m_key m_sig].
      rewrite payload_ignores_sig_key. rewrite Hf, pid_roundtrip.
      destruct (extract a) as [pk|] eqn:Ee.
      - rewrite ?Ee. subst pk. apply sign_verify.
      - rewrite key_roundtrip, Hk. apply sign_verify. }
    unfold SignPolicy.accept. rewrite V. unfold sign_message. cbn [m_sig m_from m_seqno m_key present negb andb].
    rewrite Hf, Hs. cbn [andb].
    destruct p; cbn in *; try reflexivity. specialize (Hp eq_refl). discriminate.
  Qed.
End Proofs.
