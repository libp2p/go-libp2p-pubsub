From Coq Require Import List Bool Arith.
Import ListNotations.
From PS Require Import Model.EventLog Proofs.ListFacts Proofs.SetMapProofs.

(* reduce the projections of the state and handler records, everywhere, and nothing else *)
Ltac prj := cbn [set_members hd h_log members returned pulling waiting h_token h_active] in *.

Lemma ety_eqb_spec a b : reflect (a = b) (ety_eqb a b).
Proof. destruct a, b; constructor; congruence. Qed.

Lemma memb_srem p q l : memb p (srem q l) = negb (Nat.eqb q p) && memb p l.
Proof. exact (SetMapProofs.memb_srem p q l). Qed.

Lemma memb_sadd p q l : memb p (sadd q l) = Nat.eqb p q || memb p l.
Proof.
  unfold sadd. destruct (memb q l) eqn:E; [|reflexivity].
  destruct (Nat.eqb_spec p q) as [->|]; [now rewrite E|reflexivity].
Qed.

Lemma lk_aget p l : lk p l = Router.aget p l.
Proof. induction l as [|[q t] l IH]; cbn; [reflexivity|]. now rewrite IH. Qed.

Lemma lk_rm p q l : lk p (rm q l) = if Nat.eqb p q then None else lk p l.
Proof. rewrite !lk_aget. apply aget_adel. Qed.

Lemma lk_none_nil l : (forall p, lk p l = None) -> l = [].
Proof.
  destruct l as [|[q t] l]; [reflexivity|].
  intros H. specialize (H q). cbn in H. now rewrite Nat.eqb_refl in H.
Qed.

Lemma lk_seed p m : lk p (map (fun q => (q, Join)) m) = if memb p m then Some Join else None.
Proof.
  induction m as [|x m IH]; cbn [map lk memb existsb]; [reflexivity|].
  fold (memb p m). destruct (Nat.eqb p x); cbn; [reflexivity|exact IH].
Qed.

(* what replaying the returned events says about p *)
Fixpoint view (p : peer) (r : list event) : bool :=   (* r newest first *)
  match r with
  | [] => false
  | (q, t) :: r' => if Nat.eqb p q then ety_eqb t Join else view p r'
  end.

(* every returned event of p changes the view *)
Fixpoint alt (p : peer) (r : list event) : bool :=    (* r newest first *)
  match r with
  | [] => true
  | (q, t) :: r' =>
      if Nat.eqb p q
      then (match t with Join => negb (view p r') | Leave => view p r' end) && alt p r'
      else alt p r'
  end.

Lemma memb_apply_event p m e :
  memb p (apply_event m e) =
  if Nat.eqb p (fst e) then ety_eqb (snd e) Join else memb p m.
Proof.
  destruct e as [q t]; unfold apply_event; cbn [fst snd]. destruct t.
  - rewrite memb_sadd. destruct (Nat.eqb p q); reflexivity.
  - rewrite memb_srem. rewrite (Nat.eqb_sym q p). destruct (Nat.eqb p q); reflexivity.
Qed.

Lemma memb_fold_apply p chron m :
  memb p (fold_left apply_event chron m) =
  (fix go (l : list event) (acc : bool) :=
     match l with [] => acc
     | e :: l' => go l' (if Nat.eqb p (fst e) then ety_eqb (snd e) Join else acc) end)
    chron (memb p m).
Proof.
  revert m. induction chron as [|e l IH]; intros m; cbn [fold_left]; [reflexivity|].
  rewrite IH, memb_apply_event. reflexivity.
Qed.

Lemma replay_view p r : memb p (replay (rev r)) = view p r.
Proof.
  unfold replay. induction r as [|[q t] r IH]; [reflexivity|].
  cbn [rev view]. now rewrite fold_left_app, <- IH, <- (memb_apply_event p _ (q, t)).
Qed.

Definition expect_after (l : list ety) : ety :=     (* chronological types of one peer *)
  match rev l with [] => Join | t :: _ => flip t end.

Lemma altseq_snoc e l t :
  altseq e (l ++ [t]) = altseq e l && ety_eqb t (if Nat.even (length l) then e else flip e).
Proof.
  revert e. induction l as [|x l IH]; intros e; cbn [app altseq length].
  - cbn. now rewrite andb_true_r.
  - rewrite IH, Nat.even_succ, <- Nat.negb_even, <- andb_assoc.
    destruct (Nat.even (length l)); cbn [negb]; destruct e; reflexivity.
Qed.

Lemma types_of_snoc p l e :
  types_of p (l ++ [e]) = types_of p l ++ (if Nat.eqb p (fst e) then [snd e] else []).
Proof.
  unfold types_of. rewrite filter_app, map_app. cbn [filter]. cbn beta.
  destruct (Nat.eqb _ _); reflexivity.
Qed.

(* under alternation the view is the parity of the number of events, which is what altseq_snoc asks for *)
Lemma alt_chrono p r :
  alt p r = true -> altseq Join (types_of p (rev r)) = true /\ view p r = Nat.odd (length (types_of p (rev r))).
Proof.
  induction r as [|[q t] r IH]; intros H; [split; reflexivity|].
  cbn [alt view rev] in *. rewrite types_of_snoc. cbn [fst snd].
  destruct (Nat.eqb p q); [|rewrite app_nil_r; auto].
  apply andb_prop in H as [H1 H2]. destruct (IH H2) as [IH1 IH2].
  rewrite altseq_snoc, IH1, app_length, Nat.add_1_r, Nat.odd_succ, <- Nat.negb_odd, <- IH2.
  destruct t; cbn; [apply negb_true_iff in H1|]; rewrite H1; auto.
Qed.

(* The log holds real changes only: an entry pending for p is the opposite of what the application has been
   told, and the true membership of p is its pending entry, or what the application has been told if there
   is none.  While something is pending, the token is there, or a call is on its way to the log, or nobody
   is parked. *)
Definition pend_ok (p : peer) (s : st) : Prop :=
  forall t, lk p (log_of s) = Some t -> view p (returned s) = ety_eqb t Leave.

Definition mem_ok (p : peer) (s : st) : Prop :=
  memb p (members s) = match lk p (log_of s) with Some t => ety_eqb t Join | None => view p (returned s) end.

Definition tok_ok (s : st) : Prop :=
  log_of s <> [] -> token_of s = true \/ pulling s <> [] \/ waiting s = [].

Record Inv (s : st) : Prop := {
  inv_pre   : hd s = None -> waiting s = [] /\ returned s = [];
  inv_pend  : forall p, pend_ok p s;
  inv_mem   : active s = true -> forall p, mem_ok p s;
  inv_alt   : forall p, alt p (returned s) = true;
  inv_tok   : tok_ok s
}.

Lemma Inv_init : Inv init.
Proof. split; cbn; easy. Qed.

(* state the components of [Inv] on the records themselves *)
Ltac nrm := unfold pend_ok, mem_ok, tok_ok, log_of, token_of, active in *; prj.

Lemma notify_inactive s e : active s = false -> notify s e = s.
Proof. unfold notify, active. destruct (hd s); [intros ->|]; reflexivity. Qed.

(* a real change of membership, notified *)
Lemma Inv_notify s e :
  Inv s -> memb (fst e) (members s) = ety_eqb (snd e) Leave ->
  Inv (notify (set_members s (apply_event (members s) e)) e).
Proof.
  intros [Pre P M A T] Hold. destruct (active s) eqn:Eact.
  2:{ rewrite notify_inactive by exact Eact. split; try assumption. intros E. change (active s = true) in E. congruence. }
  destruct e as [q t]. cbn [fst snd] in Hold. specialize (M eq_refl).
  unfold notify. nrm. cbn [set_members hd] in *.
  destruct (hd s) as [h|] eqn:Ehd; [rewrite Eact|discriminate]. unfold add_to_log. cbn [fst snd].
  assert (Mq := M q). assert (Pq := P q).
  destruct (lk q (h_log h)) as [t0|] eqn:Elk; [destruct (ety_eqb t0 t) eqn:Ett|].
  - rewrite Hold in Mq. destruct t0, t; discriminate.
  - split; nrm; rewrite ?Eact; try discriminate; try assumption.
    + intros p t1. rewrite lk_rm. destruct (Nat.eqb p q); [discriminate|apply P].
    + intros _ p. rewrite memb_apply_event, lk_rm. cbn [fst snd]. destruct (Nat.eqb_spec p q) as [->|]; [|apply M].
      rewrite (Pq t0 eq_refl). destruct t0, t; reflexivity || discriminate.
    + intros Hne. apply T. intros E. now rewrite E in Hne.
  - split; nrm; rewrite ?Eact; try discriminate; try assumption; cbn [lk].
    + intros p t1. destruct (Nat.eqb_spec p q) as [->|]; [intros [= <-]; congruence|apply P].
    + intros _ p. rewrite memb_apply_event. cbn [fst snd]. destruct (Nat.eqb p q); [reflexivity|apply M].
    + now left.
Qed.

(* the actions of the calls and Cancel touch the token, the two lists of calls and the registration only *)
Lemma Inv_sched s h h' pl wt :
  Inv s -> hd s = Some h -> h_log h' = h_log h -> (h_active h' = true -> h_active h = true) ->
  (h_log h <> [] -> h_token h' = true \/ pl <> [] \/ wt = []) ->
  Inv {| members := members s; hd := Some h'; pulling := pl; waiting := wt; returned := returned s |}.
Proof.
  intros [Pre P M A T] Ehd El Ha Ht. nrm. rewrite Ehd in *.
  split; nrm; rewrite ?El; try discriminate; try assumption. intros E. apply M, Ha, E.
Qed.

Lemma Inv_step s a s' : Inv s -> step s a = Some s' -> Inv s'.
Proof.
  intros I H. pose proof (inv_tok _ I) as T. unfold tok_ok, log_of, token_of in T.
  destruct a as [p|p| | |i|i r|i|i]; cbn [step] in H.
  - (* ASub *)
    destruct (memb p (members s)) eqn:Em; injection H as <-; [exact I|].
    replace (p :: members s) with (apply_event (members s) (p, Join)) by (cbn; unfold sadd; now rewrite Em).
    now apply Inv_notify.
  - (* AUnsub *)
    destruct (memb p (members s)) eqn:Em; injection H as <-; [|exact I].
    now apply (Inv_notify s (p, Leave)).
  - (* ACreate *)
    destruct (hd s) eqn:Ehd; [discriminate|]. injection H as <-.
    destruct (inv_pre _ I Ehd) as [Hw Hr].
    split; nrm; rewrite ?Hr; auto.
    + intros p t. rewrite lk_seed. now destruct (memb p (members s)); intros [= <-].
    + intros _ p. rewrite lk_seed. now destruct (memb p (members s)).
  - (* ACancelH *)
    destruct (hd s) as [h|] eqn:Ehd; [|discriminate]. injection H as <-. now apply (Inv_sched s h).
  - (* ACall *)
    destruct (hd s) as [h|] eqn:Ehd; [|discriminate].
    destruct (memb i (pulling s) || memb i (waiting s)); [discriminate|]. injection H as <-.
    apply (Inv_sched s h); auto. right; left; discriminate.
  - (* APull *)
    destruct (hd s) as [h|] eqn:Ehd; [|discriminate].
    destruct (memb i (pulling s)) eqn:Ei; [|discriminate]. destruct r as [[q t]|]; cbn [fst snd] in H.
    + destruct (lk q (h_log h)) as [t0|] eqn:Elk; [|discriminate].
      destruct (ety_eqb_spec t0 t) as [->|]; [|discriminate]. injection H as <-.
      destruct I as [Pre P M A _]. nrm. rewrite Ehd in *.
      split; nrm; try discriminate; cbn [view alt].
      * intros p t1. rewrite lk_rm. destruct (Nat.eqb p q); [discriminate|apply P].
      * intros E p. rewrite lk_rm. destruct (Nat.eqb_spec p q) as [->|]; [|now apply M].
        now rewrite (M E q), Elk.
      * intros p. destruct (Nat.eqb_spec p q) as [->|]; [|apply A].
        rewrite A, (P q t Elk). now destruct t.
      * destruct (rm q (h_log h)); [congruence|]. now left.
    + destruct (h_log h) eqn:El; [|discriminate]. injection H as <-.
      apply (Inv_sched s h); auto.
  - (* AWake *)
    destruct (hd s) as [h|] eqn:Ehd; [|discriminate].
    destruct (memb i (waiting s) && h_token h); [|discriminate]. injection H as <-.
    apply (Inv_sched s h); auto. right; left; discriminate.
  - (* ACancelT *)
    destruct (memb i (waiting s)) eqn:Ei; [|discriminate]. injection H as <-.
    destruct (hd s) as [h|] eqn:Ehd; [|now destruct (inv_pre _ I Ehd) as [W _]; rewrite W in Ei].
    apply (Inv_sched s h); auto. intros Hne. destruct (T Hne) as [?|[?|W]]; auto.
    right; right. now rewrite W.
Qed.

Lemma Inv_reachable l s : run init l = Some s -> Inv s.
Proof. exact (run_invariant step run (fun _ => eq_refl) (fun _ _ _ => eq_refl) Inv Inv_step l init s Inv_init). Qed.

(* while the handler is active, drained or not, the replay differs from the truth exactly on the pending peers *)
Theorem replay_membership_pending l s :
  run init l = Some s -> active s = true ->
  forall p, memb p (replay (rev (returned s))) =
            match lk p (log_of s) with
            | None => memb p (members s)
            | Some Join => false
            | Some Leave => true
            end.
Proof.
  intros R A p. pose proof (Inv_reachable _ _ R) as I.
  rewrite replay_view. pose proof (inv_mem _ I A p) as M. pose proof (inv_pend _ I p) as P.
  unfold mem_ok, pend_ok in *. destruct (lk p (log_of s)) as [[]|]; [exact (P _ eq_refl)..|now symmetry].
Qed.

Theorem replay_membership l s :
  run init l = Some s -> active s = true -> log_of s = [] ->
  forall p, memb p (replay (rev (returned s))) = memb p (members s).
Proof. intros R A L p. now rewrite (replay_membership_pending l s R A p), L. Qed.

Theorem alternation l s :
  run init l = Some s -> forall p, altseq Join (types_of p (rev (returned s))) = true.
Proof.
  intros R p. apply alt_chrono, (inv_alt _ (Inv_reachable _ _ R)).
Qed.

(* no lost wake-up: if events are pending, and every call has either returned or is parked in the
   select (nobody is between the token and the lock), then a parked call implies the token is there *)
Theorem no_lost_token l s :
  run init l = Some s -> log_of s <> [] -> pulling s = [] -> waiting s <> [] -> token_of s = true.
Proof.
  intros R L P W. pose proof (inv_tok _ (Inv_reachable _ _ R) L) as [T|[T|T]]; congruence.
Qed.

(* and the token then lets the parked call make progress and return an event *)
Theorem parked_call_progress l s i :
  run init l = Some s -> log_of s <> [] -> pulling s = [] -> memb i (waiting s) = true ->
  exists e s1 s2, step s (AWake i) = Some s1 /\ step s1 (APull i (Some e)) = Some s2.
Proof.
  intros R L P W.
  assert (Wn : waiting s <> []) by (intros E; rewrite E in W; discriminate).
  pose proof (no_lost_token _ _ R L P Wn) as T.
  unfold log_of, token_of in *. destruct (hd s) as [h|] eqn:Ehd; [|congruence].
  destruct (h_log h) as [|[q t] lg] eqn:El; [congruence|].
  exists (q, t). cbn [step]. rewrite Ehd, W, T. cbn [andb].
  eexists. eexists. split; [reflexivity|]. prj. cbn [memb existsb fst snd].
  rewrite Nat.eqb_refl. cbn [orb]. rewrite El. cbn [lk]. rewrite Nat.eqb_refl.
  destruct t; cbn [ety_eqb]; reflexivity.
Qed.
