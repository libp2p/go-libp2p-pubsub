From Coq Require Import List QArith.
From PS Require Import Model.Gate.

(* the gater never refuses a peer outright *)
Theorem gater_never_none P g st coin : gater_accept P g st coin <> AcceptNone.
Proof.
  unfold gater_accept. cbv zeta. destruct (gQuiet g); [discriminate|]. destruct (Qeq_bool (gThrottle g) 0); [discriminate|].
  destruct (_ && _); [discriminate|]. destruct (Qeq_bool _ 0); [discriminate|]. destruct (Qltb' coin _); discriminate.
Qed.

(* whatever the gater says, control traffic is processed; it can only suppress payload *)
Theorem gater_only_suppresses_payload P g st coin :
  p_control (dispatch (gater_accept P g st coin)) = true /\ p_subs (dispatch (gater_accept P g st coin)) = true.
Proof.
  assert (H := gater_never_none P g st coin). destruct (gater_accept P g st coin); [contradiction | split; reflexivity | split; reflexivity].
Qed.

(* a gater that has seen no throttle event for the Quiet interval accepts everything, whatever the per-source statistics *)
Theorem gater_quiet_accepts_all P g st coin : gQuiet g = true -> gater_accept P g st coin = AcceptAll.
Proof. intros H. unfold gater_accept. rewrite H. reflexivity. Qed.

(* RPCs of direct peers are always accepted in full; a non-direct peer below the graylist threshold has everything but
   its subscription announcements ignored; in between, control traffic is always processed *)
Theorem direct_accept_all score gl gate : router_accept true score gl gate = AcceptAll.
Proof. reflexivity. Qed.
Theorem graylisted_none score gl gate : (score < gl)%Z -> router_accept false score gl gate = AcceptNone.
Proof. intros H. unfold router_accept. apply Z.ltb_lt in H. rewrite H. reflexivity. Qed.
Theorem not_graylisted_control_processed score gl P g st coin :
  (gl <= score)%Z -> p_control (dispatch (router_accept false score gl (Some (gater_accept P g st coin)))) = true.
Proof.
  intros H. unfold router_accept. apply Z.ltb_ge in H. rewrite H. apply gater_only_suppresses_payload.
Qed.

(* a peer-exchange record is followed only if the pruning peer is at or above the accept-PX threshold and the record,
   when present, is valid for the advertised id *)
Theorem px_only_if score thr conn r : px_followed score thr conn r = true -> (thr <= score)%Z /\ r <> PxInvalid /\ conn = false.
Proof.
  unfold px_followed. intros H. apply andb_true_iff in H. destruct H as [H Hr]. apply andb_true_iff in H. destruct H as [Hs Hc].
  apply negb_true_iff in Hs, Hc. apply Z.ltb_ge in Hs. split; [exact Hs|]. split; [destruct r; intros E; discriminate | exact Hc].
Qed.

(* a peer with a negative score is never admitted by a GRAFT, and no PRUNE that answers its GRAFT carries peer exchange *)
Lemma neg_fate d o g : let f := graft_fate_of d true o g in f <> GfAccept /\ (fate_prunes f = true -> fate_blocks_px f = true).
Proof. unfold graft_fate_of. destruct (gi_joined g), (gi_in_mesh g), d, (gi_backoff g); cbn; repeat split; try discriminate; auto. Qed.
Theorem negative_graft_refused doPX spx cands d o gs :
  let '(pr, adm, px) := graft_reply doPX spx cands d true o gs in
  forallb negb adm = true /\ (existsb (fun b => b) pr = true -> px = false).
Proof.
  unfold graft_reply. split.
  - induction gs as [|g gs IH]; [reflexivity|]. cbn [map forallb]. rewrite IH, andb_true_r.
    destruct (neg_fate d o g) as [Ha _]. destruct (graft_fate_of d true o g); try reflexivity. contradiction.
  - intros H. assert (E : existsb fate_blocks_px (map (graft_fate_of d true o) gs) = true).
    { induction gs as [|g gs IH]; [discriminate|]. cbn [map existsb] in *. apply orb_true_iff in H. destruct H as [H|H].
      - destruct (neg_fate d o g) as [_ Hb]. rewrite (Hb H). reflexivity.
      - rewrite (IH H). apply orb_true_r. }
    rewrite E. cbn. apply andb_false_r.
Qed.
Theorem negative_hb_prune_no_px doPX spx cands : hb_prune_px doPX spx cands true = false.
Proof. unfold hb_prune_px. cbn. apply andb_false_r. Qed.
(* without the option no PRUNE carries peer exchange *)
Theorem no_px_without_option spx cands d n o gs : snd (graft_reply false spx cands d n o gs) = false.
Proof. reflexivity. Qed.
