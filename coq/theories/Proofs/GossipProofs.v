(* Proofs about Model.Gossip: the gossip bounds of C17 over every history, the recipient rules of
   C06 and the threshold gates of C09. *)
From Coq Require Import List Bool ZArith Lia Relation_Operators.
Import ListNotations.
From PS Require Import Model.Router Model.Gossip.
From PS Require Import Proofs.ListFacts Proofs.SetMapProofs Proofs.RouterProofs Proofs.McacheProofs.
Local Open Scope Z_scope.

Local Arguments memb : simpl never.

(* histories with their log: newest entry first *)
Record entry := { e_sc : list (peer * Z); e_pre : gstate; e_op : gop; e_out : list gout; e_post : gstate }.

Inductive reach (P : gparams) : gstate -> list entry -> Prop :=
| reach_init : reach P (ginit P) []
| reach_step g log sc o g' out :
    reach P g log -> gstep P sc g o = Some (g', out) ->
    reach P g' ({| e_sc := sc; e_pre := g; e_op := o; e_out := out; e_post := g' |} :: log).

Lemma grun_cons P g sc o l g' out : grun P g ((sc, o) :: l) = Some (g', out) ->
  exists g1 o1 o2, gstep P sc g o = Some (g1, o1) /\ grun P g1 l = Some (g', o2) /\ out = o1 ++ o2.
Proof.
  cbn [grun]. destruct (gstep P sc g o) as [[g1 o1]|]; [|discriminate].
  destruct (grun P g1 l) as [[g2 o2]|] eqn:Hr; [|discriminate]. intros [= <- <-]. exists g1, o1, o2. auto.
Qed.

(* [grun] (what the correspondence check replays) only visits reachable states *)
Lemma grun_reach P l : forall g log g' out,
  reach P g log -> grun P g l = Some (g', out) -> exists log', reach P g' log'.
Proof.
  induction l as [|[sc o] l IH]; intros g log g' out Hr Hrun; [injection Hrun as <- <-; eauto|].
  apply grun_cons in Hrun as (g1 & o1 & o2 & Hs & Hr2 & _). eapply IH; [|exact Hr2]. econstructor; eassumption.
Qed.

Lemma reach_entries P g log : reach P g log ->
  forall en, In en log -> gstep P (e_sc en) (e_pre en) (e_op en) = Some (e_post en, e_out en).
Proof.
  induction 1 as [|g log sc o g' out Hr IH Hs]; intros en Hin; [destruct Hin|].
  destruct Hin as [<-|Hin]; [exact Hs | apply IH; exact Hin].
Qed.

(* frames: which fields an operation can touch; here, only the router core differs *)
Definition core_only (g g' : gstate) : Prop := exists c, g' = set_core g c.
Lemma core_only_refl g : core_only g g.
Proof. exists (core g). destruct g; reflexivity. Qed.
Lemma core_only_trans a b c : core_only a b -> core_only b c -> core_only a c.
Proof. intros [x ->] [y ->]. exists y. reflexivity. Qed.

(* the gossip model's fanout selection is the router model's [fanout_pub] on the core state *)
Lemma fanout_for_publishing_core P sc g t chosen :
  fanout_for_publishing P sc g t chosen
  = match fanout_pub (gCore P) sc (core g) t chosen with Some (s', l) => Some (set_core g s', l) | None => None end.
Proof.
  unfold fanout_for_publishing, fanout_pub. destruct (aget_l t (fanout (core g))).
  - destruct (pick_ok chosen _ (pD (gCore P))); reflexivity.
  - destruct chosen; reflexivity.
Qed.

Lemma recipients_frame P sc g m ch g' r : recipients P sc g m ch = Some (g', r) -> core_only g g'.
Proof.
  unfold recipients. intros H.
  destruct (aget (m_topic m) (tmap (core g))) as [tm|]; [|injection H as <- <-; apply core_only_refl].
  destruct (gFlood P && _); [injection H as <- <-; apply core_only_refl|].
  destruct (aget (m_topic m) (mesh (core g))) as [gm|].
  - destruct ch; [|discriminate]. injection H as <- <-. apply core_only_refl.
  - rewrite fanout_for_publishing_core in H. destruct (fanout_pub _ _ _ _ _) as [[s' gm]|]; [|discriminate].
    injection H as <- <-. exists s'. reflexivity.
Qed.

(* what publish does to the gossip fields *)
Definition put_state (g : gstate) (m : msg) : gstate :=
  {| core := core g; mc := mc_put (mc g) (m_id m) (m_topic m); peerhave := peerhave g; iasked := iasked g;
     peerdontwant := peerdontwant g; unwanted := unwanted g;
     promises := filter (fun e => negb (Nat.eqb (m_id m) (fst (fst e)))) (promises g);
     seen := sadd (m_id m) (seen g); idw_peers := idw_peers g |}.

Lemma publish_frame P sc g m ch g' r : publish P sc g m ch = Some (g', r) -> core_only (put_state g m) g'.
Proof.
  unfold publish. fold (put_state g m). intros H.
  destruct (recipients P sc (put_state g m) m ch) as [[g2 r2]|] eqn:Hr; [|discriminate].
  injection H as <- <-. eapply recipients_frame; eassumption.
Qed.

(* the setters the handlers amount to, by the group of fields they write *)
Definition set_mc (g : gstate) (c : mcache) : gstate :=
  {| core := core g; mc := c; peerhave := peerhave g; iasked := iasked g; peerdontwant := peerdontwant g;
     unwanted := unwanted g; promises := promises g; seen := seen g; idw_peers := idw_peers g |}.
Definition bumped (g : gstate) (p : peer) : gstate :=
  {| core := core g; mc := mc g; peerhave := bump p (peerhave g); iasked := iasked g; peerdontwant := peerdontwant g;
     unwanted := unwanted g; promises := promises g; seen := seen g; idw_peers := idw_peers g |}.
Definition asking (g : gstate) (p : peer) (n : nat) (pr : list ((mid * peer) * Z)) : gstate :=
  {| core := core g; mc := mc g; peerhave := peerhave g; iasked := aset p n (iasked g); peerdontwant := peerdontwant g;
     unwanted := unwanted g; promises := pr; seen := seen g; idw_peers := idw_peers g |}.
Definition set_idw (g : gstate) (d : list (peer * nat)) (u : list (peer * list (mid * nat))) (w : list peer) : gstate :=
  {| core := core g; mc := mc g; peerhave := peerhave g; iasked := iasked g; peerdontwant := d;
     unwanted := u; promises := promises g; seen := seen g; idw_peers := w |}.

Lemma is_unwanted_set_mc g c p i : is_unwanted (set_mc g c) p i = is_unwanted g p i.
Proof. reflexivity. Qed.

Lemma cget_aset_same p n l : cget p (aset p n l) = n.
Proof. unfold cget. rewrite aget_aset_same. reflexivity. Qed.
Lemma cget_aset_other p q n l : q <> p -> cget q (aset p n l) = cget q l.
Proof. intros H. unfold cget. rewrite aget_aset_other by exact H. reflexivity. Qed.
Lemma cget_bump_same p l : cget p (bump p l) = S (cget p l).
Proof. unfold bump. apply cget_aset_same. Qed.
Lemma cget_bump_other p q l : q <> p -> cget q (bump p l) = cget q l.
Proof. unfold bump. apply cget_aset_other. Qed.
Lemma cget_bump_le p q l : (cget q l <= cget q (bump p l))%nat.
Proof. destruct (Nat.eq_dec q p) as [->|Hq]; [rewrite cget_bump_same; lia | rewrite cget_bump_other by exact Hq; lia]. Qed.

Definition ihave_want (P : gparams) (g : gstate) (ihaves : list (topic * list mid)) : list mid :=
  fold_left (fun acc e =>
               match aget (fst e) (mesh (core g)) with
               | None => acc
               | Some _ => fold_left (fun a i => if memb i (seen g) then a else sadd i a) (firstn (gMaxIHaveLen P) (snd e)) acc
               end) ihaves [].

Lemma ihave_want_In P g ih i : In i (ihave_want P g ih) ->
  memb i (seen g) = false /\ exists t ids, In (t, ids) ih /\ In i ids.
Proof.
  unfold ihave_want. set (C := _ /\ _). apply (fold_left_inv (fun acc => In i acc -> C)); [|intros []].
  intros acc [t ids] He Hacc. cbn [fst snd]. destruct (aget t (mesh (core g))); [|exact Hacc].
  apply (fold_left_inv (fun acc => In i acc -> C)); [|exact Hacc].
  intros a x Hx Ha. destruct (memb x (seen g)) eqn:Hs; [exact Ha|].
  intros Hin. apply In_sadd in Hin as [->|Hin]; [|exact (Ha Hin)].
  split; [exact Hs|]. exists t, ids. split; [exact He | exact (firstn_In_sub _ _ _ Hx)].
Qed.

(* handleIHave when it asks for something: the checks it passed and the state it leaves *)
Set Implicit Arguments.
Record ihave_asked (P : gparams) (sc : list (peer * Z)) (g : gstate) (p : peer) (ih : list (topic * list mid))
       (asked : list mid) (g' : gstate) : Prop := {
  ia_some : asked <> [];
  ia_score : gGossipThr P <= score_of sc p;
  ia_msgs : (S (cget p (peerhave g)) <= gMaxIHaveMsgs P)%nat;
  ia_nodup : NoDup asked;
  ia_want : incl asked (ihave_want P g ih);
  ia_len : (cget p (iasked g) + length asked <= gMaxIHaveLen P)%nat;
  ia_state : exists prs, g' = asking (bumped g p) p (cget p (iasked g) + length asked) prs
               /\ (prs = promises g \/ exists i, In i asked /\ prs = ((i, p), now (core g) + gFollowup P) :: promises g)
}.
Unset Implicit Arguments.

(* otherwise nothing is asked and at most the RPC is counted *)
Lemma handle_ihave_inv P sc g p ih asked pr g' a :
  handle_ihave P sc g p ih asked pr = Some (g', a) ->
  a = asked /\ ((asked = [] /\ (g' = g \/ g' = bumped g p)) \/ ihave_asked P sc g p ih asked g').
Proof.
  unfold handle_ihave. intros H.
  assert (E : forall g1, match asked with [] => Some (g1, []) | _ :: _ => None end = Some (g', a) -> a = asked /\ asked = [] /\ g' = g1).
  { intros g1 H1. destruct asked; [|discriminate]. injection H1 as <- <-. auto. }
  destruct (score_of sc p <? gGossipThr P) eqn:Hs; [destruct (E _ H) as (-> & -> & ->); auto|].
  fold (bumped g p) in H.
  destruct (Nat.ltb _ _) eqn:Hm; [destruct (E _ H) as (-> & -> & ->); auto|].
  destruct (Nat.leb _ _) eqn:Hl; [destruct (E _ H) as (-> & -> & ->); auto|].
  change (fold_left _ ih []) with (ihave_want P g ih) in H.
  destruct (ihave_want P g ih) as [|w ws] eqn:Hw; [destruct (E _ H) as (-> & -> & ->); auto|].
  match type of H with (if ?c then _ else _) = _ => destruct c eqn:Hc end; [|discriminate].
  apply andb_true_iff in Hc as [Hc Hpr]. apply andb_true_iff in Hc as [Hc Hlen]. apply andb_true_iff in Hc as [Hnd Hsub].
  apply Nat.eqb_eq in Hlen. apply Nat.leb_gt in Hl. apply Nat.ltb_ge in Hm. apply Z.ltb_ge in Hs.
  cbn [iasked peerhave bumped] in Hl, Hm, Hlen. rewrite cget_bump_same in Hm.
  cbn [iasked bumped] in H. rewrite <- Hlen in H. injection H as <- <-.
  split; [reflexivity|]. right. split; try assumption.
  - intros ->. destruct pr as [i|]; [apply memb_In in Hpr; destruct Hpr | discriminate].
  - apply nodup_b_NoDup, Hnd.
  - rewrite Hw. intros i Hi. eapply subset_In; eassumption.
  - rewrite Hlen. lia.
  - eexists. split; [reflexivity|]. destruct pr as [i|]; [|left; reflexivity].
    destruct (existsb _ _); [left; reflexivity|]. right. exists i. split; [apply memb_In, Hpr | reflexivity].
Qed.

(* handleIWant for the ids [ids] of peer p, from state g to cache c: only p's transmission counts
   move, upwards; an id is served at most once, only if cached, wanted, and its count after this
   request is within the limit *)
Set Implicit Arguments.
Record iwant_post (P : gparams) (p : peer) (ids : list mid) (g : gstate) (c : mcache) (served : list mid) : Prop := {
  iw_nodup : NoDup served;
  iw_mmsgs : mmsgs c = mmsgs (mc g);
  iw_others : forall i q, q <> p -> tx_get i q (peertx c) = tx_get i q (peertx (mc g));
  iw_mono : forall i, (tx_get i p (peertx (mc g)) <= tx_get i p (peertx c))%nat;
  iw_served : forall i, In i served ->
      In i ids /\ memb i (mmsgs (mc g)) = true /\ is_unwanted g p i = false
      /\ (S (tx_get i p (peertx (mc g))) <= gRetrans P)%nat /\ (S (tx_get i p (peertx (mc g))) <= tx_get i p (peertx c))%nat
}.
Unset Implicit Arguments.

Lemma iwant_loop P p g0 all ids : incl ids all -> forall c served g' served',
  handle_iwant_ids P (set_mc g0 c) p ids served = (g', served') -> iwant_post P p all g0 c served ->
  exists c', g' = set_mc g0 c' /\ iwant_post P p all g0 c' served'.
Proof.
  induction ids as [|i r IH]; intros Hall c served g' served' H J; cbn [handle_iwant_ids] in H; [injection H as <- <-; eauto|].
  assert (Hr : incl r all) by (intros x Hx; apply Hall; right; exact Hx).
  rewrite is_unwanted_set_mc in H. destruct (is_unwanted g0 p i) eqn:Hu; [exact (IH Hr _ _ _ _ H J)|].
  unfold mc_get_for_peer in H. cbn [mc set_mc] in H. destruct (memb i (mmsgs c)) eqn:Hmm; [|exact (IH Hr _ _ _ _ H J)].
  destruct J as [Hnd Hm Ho Hmono Hs].
  set (n := S (tx_get i p (peertx c))) in *. set (tx' := tx_set i p n (peertx c)) in *.
  assert (Hstep : forall j, (tx_get j p (peertx c) <= tx_get j p tx')%nat).
  { intros j. unfold tx'. destruct (Nat.eq_dec j i) as [->|Hne]; [rewrite tx_get_set_same; unfold n; lia | rewrite tx_get_set_other by congruence; lia]. }
  assert (J1 : forall sv, NoDup sv -> (forall j, In j sv -> In j served \/ (j = i /\ (n <= gRetrans P)%nat)) ->
            iwant_post P p all g0 {| hist := hist c; mmsgs := mmsgs c; peertx := tx' |} sv).
  { intros sv Hnd' Hsv. split; cbn [mmsgs peertx]; try assumption.
    - intros j q Hq. unfold tx'. rewrite tx_get_set_other by congruence. apply Ho, Hq.
    - intros j. etransitivity; [apply Hmono | apply Hstep].
    - intros j Hjs. destruct (Hsv j Hjs) as [Hold|[-> Hle]].
      + destruct (Hs j Hold) as (A & B & C & D & E). specialize (Hstep j). repeat split; try assumption. lia.
      + specialize (Hmono i). unfold tx'. rewrite tx_get_set_same.
        repeat split; [apply Hall; left; reflexivity | rewrite <- Hm; exact Hmm | exact Hu | unfold n in Hle; lia | unfold n; lia]. }
  destruct (Nat.ltb (gRetrans P) n) eqn:Hn; apply (IH Hr _ _ _ _ H), J1; auto using sadd_NoDup.
  intros j Hj. apply In_sadd in Hj as [->|Hj]; [right; split; [reflexivity | apply Nat.ltb_ge, Hn] | left; exact Hj].
Qed.

(* What a step does to the state: every operation is a sequence of the atomic updates below; the
   label says which operation can cause which update.  An invariant then needs only the updates
   that write the fields it reads: for the others the two states are convertible.  The relation keeps what
   the state invariants need and no more: U_ask leaves the new count [n] and U_peer the new list [w] open, so an
   invariant that counts what was asked (CI) treats the IHAVE step itself through [gstep_ihave]. *)
Inductive gupd (P : gparams) : gop -> gstate -> gstate -> Prop :=
| U_core o g c : gupd P o g (set_core g c)
| U_bump o g p : sender_of o = Some p -> gupd P o g (bumped g p)
| U_disc g p : gupd P (GCore (ODisconnect p)) g (set_idw g (peerdontwant g) (adel p (unwanted g)) (srem p (idw_peers g)))
| U_peer g p i idw w : gupd P (GAddPeer p i idw) g (set_idw g (peerdontwant g) (unwanted g) w)
| U_pub g m ch : memb (m_id m) (seen g) = false -> gupd P (GPublish m ch) g (put_state g m)
| U_fwd g p msgs chs m : memb (m_id m) (seen g) = false -> gupd P (GRecvMsgs p msgs chs) g (put_state g m)
| U_local g m : memb (m_id m) (seen g) = false -> gupd P (GPublishLocal m) g (local_state g m)
| U_ask g p ih a pr n prs
    (Hprs : forall i q e, In ((i, q), e) prs -> In ((i, q), e) (promises g) \/ memb i (seen g) = false) :
    gupd P (GRecvIHave p ih a pr) g (asking g p n prs)
| U_get g p ids i : gupd P (GRecvIWant p ids) g (set_mc g (snd (mc_get_for_peer (mc g) i p)))
| U_idw g p idws :
    gupd P (GRecvIDontWant p idws) g
         (set_idw g (peerdontwant (handle_idontwant P g p idws)) (unwanted (handle_idontwant P g p idws)) (idw_peers g))
| U_clear g obs fobs gobs : gupd P (GHeartbeat obs fobs gobs) g (clear_counters g)
| U_drop g obs fobs gobs : gupd P (GHeartbeat obs fobs gobs) g (drop_broken g)
| U_shift g obs fobs gobs : gupd P (GHeartbeat obs fobs gobs) g (shift_cache g).

(* Publish and PublishLocal hand idontwant_targets the numeral 4000 as the sender (the node itself); a tactic
   that has to traverse, unify or abstract over it, 4000 constructors deep, is slow.  Proofs about the two
   operations start from these equations, which put it out of sight. *)
Lemma gstep0_publish P sc g m ch : exists l, let idw := map (fun e => OIDontWant (fst (fst e)) (snd (fst e)) (snd e)) l in
  gstep0 P sc g (GPublish m ch)
  = if memb (m_id m) (seen g) then match ch with [] => Some (g, idw) | _ => None end
    else match publish P sc g m ch with Some (g', rs) => Some (g', idw ++ map (fun p => OMsg p (m_id m)) rs) | None => None end.
Proof. exact (ex_intro _ (idontwant_targets P g 4000%nat [m]) eq_refl). Qed.
Lemma gstep0_publish_local P sc g m : exists l, let idw := map (fun e => OIDontWant (fst (fst e)) (snd (fst e)) (snd e)) l in
  gstep0 P sc g (GPublishLocal m) = if memb (m_id m) (seen g) then Some (g, idw) else Some (local_state g m, idw).
Proof. exact (ex_intro _ (idontwant_targets P g 4000%nat [m]) eq_refl). Qed.

Lemma forward_all_upd P sc p msgs0 chs0 msgs : forall g chs g' out,
  forward_all P sc g msgs chs = Some (g', out) -> clos_refl_trans _ (gupd P (GRecvMsgs p msgs0 chs0)) g g'.
Proof.
  induction msgs as [|m r IH]; intros g chs g' out H; cbn [forward_all] in H.
  - injection H as <- <-. apply rt_refl.
  - destruct (memb (m_id m) (seen g)) eqn:Hs; [eapply IH; eassumption|].
    destruct (publish P sc g m _) as [[g1 rs]|] eqn:Hp; [|discriminate].
    destruct (forward_all P sc g1 r (tl chs)) as [[g2 o2]|] eqn:Hf; [|discriminate].
    injection H as <- <-. destruct (publish_frame _ _ _ _ _ _ _ Hp) as [c ->].
    eapply rt_trans; [apply rt_step, U_fwd, Hs|]. eapply rt_trans; [apply rt_step, U_core | eapply IH; eassumption].
Qed.

Lemma iwant_ids_upd P p ids0 ids : forall g served g' served',
  handle_iwant_ids P g p ids served = (g', served') -> clos_refl_trans _ (gupd P (GRecvIWant p ids0)) g g'.
Proof.
  induction ids as [|i r IH]; intros g served g' served' H; cbn [handle_iwant_ids] in H.
  - injection H as <- <-. apply rt_refl.
  - destruct (is_unwanted g p i); [eapply IH; eassumption|].
    assert (U := U_get P g p ids0 i). destruct (mc_get_for_peer (mc g) i p) as [[n|] c']; [|eapply IH; eassumption].
    eapply rt_trans; [apply rt_step, U|]. destruct (Nat.ltb (gRetrans P) n); eapply IH; eassumption.
Qed.

Lemma handle_idontwant_eq P g p idws :
  handle_idontwant P g p idws
  = set_idw g (peerdontwant (handle_idontwant P g p idws)) (unwanted (handle_idontwant P g p idws)) (idw_peers g).
Proof. unfold handle_idontwant. destruct idws; [destruct g; reflexivity|]. destruct (Nat.leb _ _); [destruct g|]; reflexivity. Qed.

Lemma gstep0_upd P sc g o g' out : gstep0 P sc g o = Some (g', out) -> clos_refl_trans _ (gupd P o) g g'.
Proof.
  intros H. destruct o as [ro|p i idw|m ch|m|p msgs chs|p ih a pr|p ids|p idws|obs fobs gobs].
  - cbn [gstep0] in H. destruct ro;
      try (match type of H with match ?x with _ => _ end = _ => destruct x as [[[c ctls] pen]|] end;
           [|discriminate]; injection H as <- <-; try apply rt_step, U_core).
    + eapply rt_trans; [apply rt_step, (U_core P _ g c) | apply rt_step, (U_disc P (set_core g c) p)].
    + discriminate.
  - injection H as <- <-. eapply rt_trans; [apply rt_step, (U_core P _ g (add_peer (core g) p i))|].
    apply rt_step, (U_peer P (set_core g (add_peer (core g) p i)) p i idw).
  - destruct (gstep0_publish P sc g m ch) as [l E]. rewrite E in H. clear E.
    destruct (memb (m_id m) (seen g)) eqn:Hs; [destruct ch; [|discriminate]; injection H as <- <-; apply rt_refl|].
    destruct (publish P sc g m ch) as [[g1 rs]|] eqn:Hp; [|discriminate]. injection H as <- <-.
    destruct (publish_frame _ _ _ _ _ _ _ Hp) as [c ->].
    eapply rt_trans; [apply rt_step, U_pub, Hs | apply rt_step, U_core].
  - destruct (gstep0_publish_local P sc g m) as [l E]. rewrite E in H. clear E.
    destruct (memb (m_id m) (seen g)) eqn:Hs; injection H as <- <-; [apply rt_refl | apply rt_step, U_local, Hs].
  - cbn [gstep0] in H. match type of H with match forward_all P sc g ?f chs with _ => _ end = _ =>
      destruct (forward_all P sc g f chs) as [[g1 o1]|] eqn:Hf end; [|discriminate].
    injection H as <- <-. eapply forward_all_upd, Hf.
  - cbn [gstep0] in H. destruct (handle_ihave P sc g p ih a pr) as [[g1 a1]|] eqn:Hh; [|discriminate]. injection H as <- <-.
    destruct (handle_ihave_inv _ _ _ _ _ _ _ _ _ Hh) as [_ [[_ [->| ->]]|A]].
    + apply rt_refl.
    + apply rt_step, U_bump. reflexivity.
    + destruct (ia_state A) as (prs & -> & Hp).
      eapply rt_trans; [apply rt_step, U_bump; reflexivity|]. apply rt_step, U_ask.
      intros i q e Hin. destruct Hp as [->|[j [Hj ->]]]; [left; exact Hin|].
      destruct Hin as [[= <- <- <-]|Hin]; [|left; exact Hin]. right. apply (ihave_want_In P g ih j (ia_want A j Hj)).
  - cbn [gstep0] in H. unfold handle_iwant in H. destruct (_ <? _); [injection H as <- <-; apply rt_refl|].
    destruct (handle_iwant_ids P g p ids []) as [g1 sv] eqn:Hl. injection H as <- <-. eapply iwant_ids_upd, Hl.
  - injection H as <- <-. rewrite handle_idontwant_eq. apply rt_step, U_idw.
  - cbn [gstep0] in H. destruct (heartbeat _ _ _ _ _) as [[c ctls]|]; [|discriminate].
    match type of H with (if ?b then _ else _) = _ => destruct b end; [|discriminate]. injection H as <- <-.
    eapply rt_trans; [apply rt_step, U_clear|]. eapply rt_trans; [apply rt_step, U_drop|].
    eapply rt_trans; [apply rt_step, U_core | apply rt_step, U_shift].
Qed.

Theorem gstep_upd P sc g o g' out : gstep P sc g o = Some (g', out) -> clos_refl_trans _ (gupd P o) g g'.
Proof.
  unfold gstep. destruct (sender_of o) as [p|] eqn:Hp; [|apply gstep0_upd].
  destruct (accept_from P sc g p); [|intros H; injection H as <- <-; apply rt_refl].
  intros H. apply gstep0_upd in H. destruct (ctl_without_ihave o); [|exact H].
  unfold count_ctl in H. destruct (_ <? _); [exact H|]. eapply rt_trans; [apply rt_step, U_bump, Hp | exact H].
Qed.

(* hence a reflexive and transitive relation that contains the updates an operation can cause holds
   between the state before the operation and the state after; in particular a property those updates
   keep is kept by the operation *)
Lemma gstep_frame P (R : gstate -> gstate -> Prop) o sc g g' out :
  (forall g, R g g) -> (forall a b c, R a b -> R b c -> R a c) -> (forall g g', gupd P o g g' -> R g g') ->
  gstep P sc g o = Some (g', out) -> R g g'.
Proof. intros Hr Ht HR H. apply gstep_upd in H. induction H; eauto. Qed.

Lemma gstep_preserves P (Q : gstate -> Prop) o sc g g' out :
  (forall g g', gupd P o g g' -> Q g -> Q g') -> gstep P sc g o = Some (g', out) -> Q g -> Q g'.
Proof. intros HQ. apply (gstep_frame P (fun a b => Q a -> Q b)); eauto. Qed.

(* A property of the state and its log looks at the entries of a few operations only: those steps are
   done by hand; for the others the new entry is not looked at and the state goes through its updates.
   A property of the state alone has no step to do by hand. *)
Lemma reach_log_inv P (Q : gstate -> list entry -> Prop) (special : gop -> bool) :
  Q (ginit P) [] ->
  (forall g log sc o g' out, reach P g log -> Q g log -> special o = true -> gstep P sc g o = Some (g', out) ->
     Q g' ({| e_sc := sc; e_pre := g; e_op := o; e_out := out; e_post := g' |} :: log)) ->
  (forall g log en, special (e_op en) = false -> Q g log -> Q g (en :: log)) ->
  (forall o g g' log, special o = false -> gupd P o g g' -> Q g log -> Q g' log) ->
  forall g log, reach P g log -> Q g log.
Proof.
  intros H0 Hsp Hcons Hupd g log H. induction H as [|g log sc o g' out Hr IH Hs]; [exact H0|].
  destruct (special o) eqn:E; [eapply Hsp; eassumption|].
  eapply (gstep_preserves P (fun a => Q a (_ :: log))); [intros a b; apply Hupd, E | exact Hs | apply Hcons; [exact E | exact IH]].
Qed.

Lemma reach_inv P (Q : gstate -> Prop) :
  Q (ginit P) -> (forall o g g', gupd P o g g' -> Q g -> Q g') -> forall g log, reach P g log -> Q g.
Proof.
  intros H0 HQ. apply (reach_log_inv P (fun g _ => Q g) (fun _ => false)); [exact H0 | discriminate | auto | intros o g g' _ _; apply HQ].
Qed.

Definition is_ihave (o : gop) : bool := match o with GRecvIHave _ _ _ _ => true | _ => false end.
Definition is_hb (o : gop) : bool := match o with GHeartbeat _ _ _ => true | _ => false end.
Definition is_iwant (o : gop) : bool := match o with GRecvIWant _ _ => true | _ => false end.

(* an IWANT that is not ignored: the peer is accepted and at or above the gossip threshold, the RPC is
   counted, and the answer comes out of the loop over the requested ids *)
Set Implicit Arguments.
Record iwant_answered (P : gparams) (sc : list (peer * Z)) (g : gstate) (p : peer) (ids : list mid)
       (g' : gstate) (out : list gout) (c : mcache) (served : list mid) : Prop := {
  iwa_accept : accept_from P sc g p = true;
  iwa_score : gGossipThr P <= score_of sc p;
  iwa_state : g' = set_mc (bumped g p) c;
  iwa_out : out = map (OMsg p) served;
  iwa_loop : iwant_post P p ids g c served
}.
Unset Implicit Arguments.

Lemma gstep_iwant P sc g p ids g' out :
  gstep P sc g (GRecvIWant p ids) = Some (g', out) ->
  (g' = g /\ out = []) \/ exists c served, iwant_answered P sc g p ids g' out c served.
Proof.
  unfold gstep. cbn [sender_of ctl_without_ihave]. destruct (accept_from P sc g p) eqn:Hacc; [|intros H; injection H as <- <-; auto].
  cbn [gstep0]. unfold handle_iwant, count_ctl.
  destruct (score_of sc p <? gGossipThr P) eqn:Hs; [intros H; injection H as <- <-; auto|].
  apply Z.ltb_ge in Hs. fold (bumped g p).
  destruct (handle_iwant_ids P (bumped g p) p ids []) as [g1 served] eqn:Hl.
  intros H. injection H as -> <-. right.
  destruct (iwant_loop P p (bumped g p) ids ids (incl_refl _) (mc g) [] g' served Hl) as (c & -> & J).
  - split; auto; [constructor | contradiction].
  - exists c, served. split; auto. destruct J. split; assumption.
Qed.

Lemma gstep_ihave P sc g p ih a pr g' out :
  gstep P sc g (GRecvIHave p ih a pr) = Some (g', out) ->
  (out = [] /\ (g' = g \/ g' = bumped g p))
  \/ (out = [OIWant p a] /\ accept_from P sc g p = true /\ ihave_asked P sc g p ih a g').
Proof.
  unfold gstep. cbn [sender_of ctl_without_ihave gstep0].
  destruct (accept_from P sc g p); [|intros H; injection H as <- <-; auto].
  destruct (handle_ihave P sc g p ih a pr) as [[g1 a1]|] eqn:Hh; [|discriminate].
  intros H. injection H as <- <-.
  destruct (handle_ihave_inv _ _ _ _ _ _ _ _ _ Hh) as [-> [[-> Hg]|A]]; [left; auto|].
  right. destruct a; [destruct (ia_some A); reflexivity | auto].
Qed.

(* the heartbeat: what it checked, the state it leaves and what it emits *)
Set Implicit Arguments.
Record hb_effect (P : gparams) (sc : list (peer * Z)) (g : gstate) (obs : list (topic * list hev)) (fobs : list (topic * list peer))
       (gobs : list (topic * list (peer * list mid))) (g' : gstate) (out : list gout) (c : rstate) (ctls : list ctl) : Prop := {
  hb_core : heartbeat (gCore P) sc (core g) obs fobs = Some (c, ctls);
  hb_post : g' = shift_cache (set_core (drop_broken (clear_counters g)) c);
  hb_out : out = map (fun p => OPenalty p (count_peer p (broken (clear_counters g))))
                     (filter (has_queue g) (dedup (broken (clear_counters g))))
                 ++ map OCtl ctls
                 ++ concat (map (fun e => map (fun pe => OIHave (fst pe) (fst e) (snd pe)) (snd e)) gobs);
  hb_gossip : forallb (fun e => gossip_ok P sc (set_core (drop_broken (clear_counters g)) c) (fst e) (snd e)
                                          (match aget (fst e) gobs with Some l => l | None => [] end))
                      (map (fun e => (fst e, snd e)) (mesh c) ++ map (fun e => (fst e, snd e)) (fanout c)) = true;
  hb_topics : forallb (fun e => match aget (fst e) (mesh c), aget (fst e) (fanout c) with None, None => false | _, _ => true end) gobs = true;
  hb_nodup : nodup_b (map fst gobs) = true
}.
Unset Implicit Arguments.

Lemma gstep_hb P sc g obs fobs gobs g' out :
  gstep P sc g (GHeartbeat obs fobs gobs) = Some (g', out) -> exists c ctls, hb_effect P sc g obs fobs gobs g' out c ctls.
Proof.
  unfold gstep. cbn [sender_of gstep0]. cbn [core drop_broken clear_counters].
  destruct (heartbeat (gCore P) sc (core g) obs fobs) as [[c ctls]|] eqn:Hhb; [|discriminate].
  match goal with |- (if ?b then _ else _) = _ -> _ => destruct b eqn:Hb end; [|discriminate].
  intros H. injection H as <- <-. exists c, ctls. apply andb_true_iff in Hb as [Hb Hb3]. apply andb_true_iff in Hb as [Hb1 Hb2]. split; auto.
Qed.

(* in particular the gossip fields after a heartbeat do not depend on what the router core did *)
Lemma hb_state P sc g o g' out :
  is_hb o = true -> gstep P sc g o = Some (g', out) -> exists c, g' = shift_cache (set_core (drop_broken (clear_counters g)) c).
Proof.
  destruct o; try discriminate. intros _ H. destruct (gstep_hb _ _ _ _ _ _ _ _ H) as (c & ctls & X). exists c. exact (hb_post X).
Qed.

(* a promise is only ever outstanding for a message that has not arrived; whatever is in the cache
   has been seen *)
Definition GI (g : gstate) : Prop :=
  (forall i p e, In ((i, p), e) (promises g) -> memb i (seen g) = false)
  /\ (forall i, memb i (mmsgs (mc g)) = true -> memb i (seen g) = true).

Lemma GI_mark g m c :
  GI g -> (forall i, memb i (mmsgs c) = true -> i = m_id m \/ memb i (mmsgs (mc g)) = true) -> GI (set_mc (local_state g m) c).
Proof.
  intros [Ha Hb] Hc. split; cbn.
  - intros i p e Hin. apply filter_In in Hin as [Hin Hne]. cbn in Hne.
    rewrite memb_sadd, (Ha _ _ _ Hin), orb_false_r. apply negb_true_iff in Hne. rewrite Nat.eqb_sym. exact Hne.
  - intros i Hi. rewrite memb_sadd. destruct (Hc i Hi) as [->|H]; [rewrite Nat.eqb_refl; reflexivity | rewrite (Hb _ H); apply orb_true_r].
Qed.
Lemma GI_put g m : GI g -> GI (put_state g m).
Proof.
  intros HG. apply (GI_mark g m (mc_put (mc g) (m_id m) (m_topic m)) HG). cbn [mmsgs mc_put]. intros i Hi.
  rewrite memb_sadd in Hi. apply orb_true_iff in Hi as [Hi|Hi]; [left; apply Nat.eqb_eq, Hi | right; exact Hi].
Qed.

Lemma GI_init P : GI (ginit P).
Proof. split; cbn; [intros i p e [] | intros i H; discriminate]. Qed.

Lemma GI_upd P o g g' : gupd P o g g' -> GI g -> GI g'.
Proof.
  intros U HG. pose proof HG as [Ha Hb]. destruct U; try exact HG; try (apply GI_put, HG).
  - (* U_local *) exact (GI_mark g m (mc g) HG (fun i Hi => or_intror Hi)).
  - (* U_ask *) split; [|exact Hb]. intros i q e Hin. destruct (Hprs _ _ _ Hin) as [Hin'|Hu]; [eapply Ha, Hin' | exact Hu].
  - (* U_get *) split; [exact Ha|]. cbn [mc set_mc]. rewrite mmsgs_get. exact Hb.
  - (* U_drop *) split; [|exact Hb]. intros i q e Hin. apply filter_In in Hin. eapply Ha, Hin.
  - (* U_shift *) split; [exact Ha|]. intros i Hi. apply Hb, (mc_shift_sub _ _ Hi).
Qed.

Lemma GI_forward_all P sc msgs : forall g chs g' out, GI g -> forward_all P sc g msgs chs = Some (g', out) -> GI g'.
Proof.
  intros g chs g' out HG H. apply (forward_all_upd P sc 0%nat msgs chs) in H.
  induction H; eauto using GI_upd.
Qed.

Theorem GI_reach P g log : reach P g log -> GI g.
Proof. apply reach_inv; [apply GI_init | apply GI_upd]. Qed.

(* C17: a peer is served the same message at most GossipRetransmission times, over any history *)
Definition is_msg_to (p : peer) (i : mid) (o : gout) : bool :=
  match o with OMsg q j => Nat.eqb q p && Nat.eqb j i | _ => false end.
Definition served_in (en : entry) (p : peer) (i : mid) : nat :=
  match e_op en with
  | GRecvIWant q _ => if Nat.eqb q p then length (filter (is_msg_to p i) (e_out en)) else 0%nat
  | _ => 0%nat
  end.
Fixpoint served_cnt (log : list entry) (p : peer) (i : mid) : nat :=
  match log with [] => 0%nat | en :: r => (served_in en p i + served_cnt r p i)%nat end.

Lemma count_served p i served :
  NoDup served -> length (filter (is_msg_to p i) (map (OMsg p) served)) = if memb i served then 1%nat else 0%nat.
Proof.
  induction served as [|x l IH]; intros Hnd; [reflexivity|].
  inversion Hnd; subst. cbn [map filter is_msg_to]. rewrite Nat.eqb_refl, memb_cons, (Nat.eqb_sym i x). cbn [andb].
  destruct (Nat.eqb_spec x i) as [->|Hne]; cbn [length orb]; rewrite IH by assumption; [|reflexivity].
  destruct (memb i l) eqn:Hm; [apply memb_In in Hm; contradiction | reflexivity].
Qed.

(* the count of what was served is bounded by the cache's own transmission count while the message
   is cached, and nothing unseen was ever served *)
Definition SI (P : gparams) (g : gstate) (log : list entry) : Prop :=
  forall p i, (served_cnt log p i <= gRetrans P)%nat
              /\ (memb i (mmsgs (mc g)) = true -> (served_cnt log p i <= tx_get i p (peertx (mc g)))%nat)
              /\ (memb i (seen g) = false -> served_cnt log p i = 0%nat).

(* of a message that is cached while unseen nothing has been served *)
Lemma SI_put P log g m : memb (m_id m) (seen g) = false -> SI P g log -> SI P (put_state g m) log.
Proof.
  intros Hm HS q i. destruct (HS q i) as (S1 & S2 & S3). cbn [mc seen put_state mc_put mmsgs peertx]. rewrite !memb_sadd.
  split; [exact S1|]. split.
  - intros Hmm. apply orb_true_iff in Hmm as [He|Hmm]; [|apply S2, Hmm].
    apply Nat.eqb_eq in He. subst i. rewrite (proj2 (proj2 (HS q (m_id m))) Hm). lia.
  - intros Hns. apply orb_false_iff in Hns. apply S3, Hns.
Qed.

Lemma SI_upd P log o g g' : is_iwant o = false -> gupd P o g g' -> SI P g log -> SI P g' log.
Proof.
  intros Hiw U HS. destruct U; try discriminate; try exact HS; try (apply SI_put; assumption);
    intros q i; destruct (HS q i) as (S1 & S2 & S3); (split; [exact S1|]).
  - (* U_local *) split; [exact S2|]. cbn [seen local_state]. rewrite memb_sadd. intros Hns. apply orb_false_iff in Hns. apply S3, Hns.
  - (* U_shift *) split; [|exact S3]. intros Hmm. destruct (mc_shift_sub _ _ Hmm) as [Hm Htx]. rewrite Htx. apply S2, Hm.
Qed.

Lemma SI_iwant P g log sc p0 ids g' out :
  GI g -> SI P g log -> gstep P sc g (GRecvIWant p0 ids) = Some (g', out) ->
  SI P g' ({| e_sc := sc; e_pre := g; e_op := GRecvIWant p0 ids; e_out := out; e_post := g' |} :: log).
Proof.
  intros HG HS H. destruct (gstep_iwant _ _ _ _ _ _ _ H) as [[-> ->]|(c & sv & X)].
  - intros p i. cbn [served_cnt served_in e_op e_out]. destruct (Nat.eqb p0 p); cbn [filter length]; apply HS.
  - rewrite (iwa_state X), (iwa_out X). pose proof (iwa_loop X) as J.
    intros p i. cbn [served_cnt served_in e_op e_out seen mc set_mc bumped]. rewrite (iw_mmsgs J).
    destruct (HS p i) as (S1 & S2 & S3).
    destruct (Nat.eqb_spec p0 p) as [->|Hne].
    + rewrite count_served by exact (iw_nodup J). pose proof (iw_mono J i) as Hmono. destruct (memb i sv) eqn:Hi.
      * apply memb_In in Hi. destruct (iw_served J i Hi) as (_ & Hmm & _ & Hr & Htx).
        specialize (S2 Hmm). split; [lia|]. split; [intros _; lia|].
        intros Hns. destruct HG as [_ Hb]. rewrite (Hb i Hmm) in Hns. discriminate.
      * cbn [Nat.add]. split; [exact S1|]. split; [|exact S3]. intros Hmm. specialize (S2 Hmm). lia.
    + cbn [Nat.add]. split; [exact S1|]. split; [|exact S3].
      intros Hmm. rewrite (iw_others J) by congruence. apply S2. exact Hmm.
Qed.

Lemma SI_reach P g log : reach P g log -> SI P g log.
Proof.
  apply (reach_log_inv P (SI P) is_iwant).
  - intros p i. cbn [served_cnt]. repeat split; intros; lia.
  - intros g0 log0 sc o g' out Hr HS Ho. destruct o as [| | | | | |p0 ids| |]; try discriminate.
    apply SI_iwant; [exact (GI_reach _ _ _ Hr) | exact HS].
  - intros g0 log0 en Ho HS p i. cbn [served_cnt]. unfold served_in. destruct (e_op en); try discriminate; apply HS.
  - intros o g0 g' log0. apply SI_upd.
Qed.

(* what an IWANT is answered with: only cached messages, never one the peer declared unwanted,
   never to a peer below the gossip threshold or graylisted *)
Theorem iwant_answers P g log en p ids i :
  reach P g log -> In en log -> e_op en = GRecvIWant p ids -> In (OMsg p i) (e_out en) ->
  In i ids /\ memb i (mmsgs (mc (e_pre en))) = true /\ is_unwanted (e_pre en) p i = false
  /\ gGossipThr P <= score_of (e_sc en) p /\ accept_from P (e_sc en) (e_pre en) p = true.
Proof.
  intros Hr Hin Hop Hout. pose proof (reach_entries _ _ _ Hr en Hin) as Hs. rewrite Hop in Hs.
  destruct (gstep_iwant _ _ _ _ _ _ _ Hs) as [[_ E]|(c & sv & X)]; [rewrite E in Hout; destruct Hout|].
  rewrite (iwa_out X) in Hout. apply in_map_iff in Hout as [j [[= ->] Hjs]].
  destruct (iw_served (iwa_loop X) i Hjs) as (A & B & C & _). pose proof (iwa_score X). pose proof (iwa_accept X). auto.
Qed.

(* C17: per-heartbeat bounds on what the node requests and honours *)
Fixpoint since_hb (f : entry -> nat) (log : list entry) : nat :=
  match log with
  | [] => 0%nat
  | en :: r => if is_hb (e_op en) then 0%nat else (f en + since_hb f r)%nat
  end.
Definition iwant_ids (out : list gout) : nat :=
  fold_right (fun x acc => match x with OIWant _ l => (length l + acc)%nat | _ => acc end) 0%nat out.
Definition asked_in (p : peer) (en : entry) : nat :=
  match e_op en with GRecvIHave q _ _ _ => if Nat.eqb q p then iwant_ids (e_out en) else 0%nat | _ => 0%nat end.
Definition honoured_in (p : peer) (en : entry) : nat :=
  match e_op en with
  | GRecvIHave q _ _ _ => if Nat.eqb q p then match e_out en with [] => 0%nat | _ => 1%nat end else 0%nat
  | _ => 0%nat
  end.

(* the log agrees with the counters: what was asked of p since the heartbeat is iasked[p], what was
   honoured is at most peerhave[p], and both are within their caps *)
Definition CI (P : gparams) (g : gstate) (log : list entry) : Prop :=
  forall p, since_hb (asked_in p) log = cget p (iasked g)
            /\ (cget p (iasked g) <= gMaxIHaveLen P)%nat
            /\ (since_hb (honoured_in p) log <= cget p (peerhave g))%nat
            /\ (since_hb (honoured_in p) log <= gMaxIHaveMsgs P)%nat.

(* operations other than IHAVE and the heartbeat leave iasked alone and never lower peerhave *)
Lemma CI_upd P log o g g' : is_hb o || is_ihave o = false -> gupd P o g g' -> CI P g log -> CI P g' log.
Proof.
  intros Ho U HC. destruct U; try discriminate; try exact HC.
  (* U_bump *) intros q. destruct (HC q) as (C1 & C2 & C3 & C4). cbn [iasked peerhave bumped].
  pose proof (cget_bump_le p q (peerhave g)). repeat split; try assumption. lia.
Qed.

Lemma CI_step P g log sc o g' out :
  is_hb o || is_ihave o = true -> CI P g log -> gstep P sc g o = Some (g', out) ->
  CI P g' ({| e_sc := sc; e_pre := g; e_op := o; e_out := out; e_post := g' |} :: log).
Proof.
  intros Ho HC H. destruct (is_hb o) eqn:Hhb.
  - destruct (hb_state _ _ _ _ _ _ Hhb H) as [c ->]. intros p. cbn [since_hb e_op]. rewrite Hhb. cbn. repeat split; lia.
  - destruct o as [| | | | |q ih a pr| | |]; try discriminate.
    intros p. cbn [since_hb e_op is_hb asked_in honoured_in e_out].
    destruct (HC p) as (C1 & C2 & C3 & C4).
    destruct (gstep_ihave _ _ _ _ _ _ _ _ _ H) as [[-> Hg]|(-> & _ & A)].
    + assert (E : iasked g' = iasked g /\ (cget p (peerhave g) <= cget p (peerhave g'))%nat)
        by (destruct Hg as [->| ->]; (split; [reflexivity|]); [apply Nat.le_refl | apply cget_bump_le]).
      destruct E as [E1 E2]. rewrite E1. destruct (Nat.eqb q p); cbn; repeat split; lia.
    + destruct (ia_state A) as (prs & -> & _). pose proof (ia_msgs A). pose proof (ia_len A).
      cbn [iasked peerhave asking bumped iwant_ids fold_right].
      destruct (Nat.eqb_spec q p) as [->|Hqp].
      * rewrite cget_aset_same, cget_bump_same. repeat split; lia.
      * rewrite cget_aset_other, cget_bump_other by congruence. cbn. auto.
Qed.

Lemma CI_reach P g log : reach P g log -> CI P g log.
Proof.
  apply (reach_log_inv P (CI P) (fun o => is_hb o || is_ihave o)).
  - intros p. cbn. repeat split; lia.
  - intros g0 log0 sc o g' out _ HC Ho. apply CI_step; assumption.
  - intros g0 log0 en Ho HC p. apply orb_false_iff in Ho as [Hhb Hih].
    cbn [since_hb]. rewrite Hhb. unfold asked_in, honoured_in. destruct (e_op en); try discriminate; apply HC.
  - intros o g0 g' log0. apply CI_upd.
Qed.

(* only unseen ids are requested, never from a peer below the gossip threshold or graylisted,
   never more than advertised *)
Theorem iwant_requests P g log en p ih a pr asked :
  reach P g log -> In en log -> e_op en = GRecvIHave p ih a pr -> In (OIWant p asked) (e_out en) ->
  asked = a /\ NoDup asked
  /\ (forall i, In i asked -> memb i (seen (e_pre en)) = false /\ exists t ids, In (t, ids) ih /\ In i ids)
  /\ gGossipThr P <= score_of (e_sc en) p /\ accept_from P (e_sc en) (e_pre en) p = true.
Proof.
  intros Hr Hin Hop Hout. pose proof (reach_entries _ _ _ Hr en Hin) as Hs. rewrite Hop in Hs.
  destruct (gstep_ihave _ _ _ _ _ _ _ _ _ Hs) as [[E _]|(E & Hacc & A)]; rewrite E in Hout; [destruct Hout|].
  destruct Hout as [[= <-]|[]].
  split; [reflexivity|]. split; [exact (ia_nodup A)|]. split; [|split; [exact (ia_score A) | exact Hacc]].
  intros i Hi. exact (ihave_want_In P _ ih i (ia_want A i Hi)).
Qed.

(* C17: IDONTWANT bookkeeping: per-heartbeat cap, at most MaxIDontWantLength ids, TTL *)
Definition uttl (g : gstate) (p : peer) (i : mid) : option nat :=
  match aget p (unwanted g) with Some l => aget i l | None => None end.
Lemma is_unwanted_uttl g p i : is_unwanted g p i = match uttl g p i with Some _ => true | None => false end.
Proof. unfold is_unwanted, uttl. destruct (aget p (unwanted g)); reflexivity. Qed.

Lemma idontwant_spec P g p idws :
  let g' := handle_idontwant P g p idws in
  g' = g \/
  (idws <> [] /\ (cget p (peerdontwant g) < gMaxIDWMsgs P)%nat /\ peerdontwant g' = bump p (peerdontwant g)
   /\ forall q i, uttl g' q i = if Nat.eqb q p && memb i (firstn (gMaxIDWLen P) (concat idws)) then Some (gIDWTTL P) else uttl g q i).
Proof.
  unfold handle_idontwant. destruct idws as [|x xs]; [left; reflexivity|].
  destruct (Nat.leb (gMaxIDWMsgs P) (cget p (peerdontwant g))) eqn:Hl; [left; reflexivity|].
  apply Nat.leb_gt in Hl. right. split; [discriminate|]. split; [exact Hl|]. split; [reflexivity|].
  intros q i. unfold uttl. cbn [unwanted].
  set (ids := firstn (gMaxIDWLen P) (concat (x :: xs))).
  destruct ids as [|y ys] eqn:Hids; [rewrite andb_false_r; reflexivity|].
  rewrite <- Hids, aget_aset. destruct (Nat.eqb_spec q p) as [->|]; cbn [andb]; [|reflexivity].
  rewrite aget_fold_aset. destruct (memb i ids); [reflexivity|]. destruct (aget p (unwanted g)); reflexivity.
Qed.

(* the per-peer counter of honoured IDONTWANTs never exceeds MaxIDontWantMessages (the heartbeat resets it: hb_state) *)
Definition DI (P : gparams) (g : gstate) : Prop := forall p, (cget p (peerdontwant g) <= gMaxIDWMsgs P)%nat.

Lemma DI_upd P o g g' : gupd P o g g' -> DI P g -> DI P g'.
Proof.
  intros U HD. destruct U; try exact HD; intros q.
  - (* U_idw *) cbn [peerdontwant set_idw]. destruct (idontwant_spec P g p idws) as [->|(_ & Hlt & -> & _)]; [apply HD|].
    destruct (Nat.eq_dec q p) as [->|Hq]; [rewrite cget_bump_same; lia | rewrite cget_bump_other by exact Hq; apply HD].
  - (* U_clear *) cbn. lia.
Qed.

Theorem idontwant_counter_bounded P g log : reach P g log -> DI P g.
Proof. apply reach_inv; [intros p; cbn; lia | apply DI_upd]. Qed.

(* key uniqueness of the unwanted maps (so that lookups commute with the heartbeat's sweep) *)
Definition UK (g : gstate) : Prop := ukeys (unwanted g) /\ forall p l, aget p (unwanted g) = Some l -> ukeys l.

(* clearIDontWantCounters: every ttl goes down by one, entries that reach zero go; the unwanted map of
   [clear_counters g] is [sweep dec_ttl (unwanted g)] by conversion *)
Definition dec_ttl (l : list (nat * nat)) : list (nat * nat) :=
  filter (fun it => Nat.ltb 0 (snd it)) (map (fun it => (fst it, pred (snd it))) l).
Definition ttl_dec (o : option nat) : option nat :=
  match o with Some n => if Nat.ltb 1 n then Some (pred n) else None | None => None end.

Lemma keys_dec_ttl l : NoDup (map fst l) -> NoDup (map fst (dec_ttl l)).
Proof. intros H. apply NoDup_keys_filter. rewrite keys_map_vals. exact H. Qed.
Lemma aget_dec_ttl l i : NoDup (map fst l) -> aget i (dec_ttl l) = ttl_dec (aget i l).
Proof.
  intros H. unfold dec_ttl. rewrite aget_filter by (rewrite keys_map_vals; exact H). rewrite aget_map_vals.
  destruct (aget i l) as [[|[|n]]|]; reflexivity.
Qed.

Lemma UK_clear g : UK g -> UK (clear_counters g).
Proof. intros HU. exact (ukeys2_sweep dec_ttl (unwanted g) keys_dec_ttl HU). Qed.
Lemma aget2_sweep_dec (m : list (nat * list (nat * nat))) p i : ukeys2 m -> aget2 p i (sweep dec_ttl m) = ttl_dec (aget2 p i m).
Proof.
  intros [U1 U2]. rewrite aget2_sweep by exact U1. unfold aget2.
  destruct (aget p m) as [l|] eqn:E; [apply aget_dec_ttl, (U2 p l E) | reflexivity].
Qed.

Lemma uttl_clear g p i : UK g -> uttl (clear_counters g) p i = ttl_dec (uttl g p i).
Proof. intros HU. exact (aget2_sweep_dec (unwanted g) p i HU). Qed.

Lemma UK_idontwant P g p idws : UK g -> UK (handle_idontwant P g p idws).
Proof.
  intros HU. unfold handle_idontwant. destruct idws as [|x xs]; [exact HU|]. destruct (Nat.leb _ _); [exact HU|].
  unfold UK. cbn [unwanted]. destruct (firstn (gMaxIDWLen P) (concat (x :: xs))) as [|y ys] eqn:Hids; [exact HU|]. rewrite <- Hids.
  exact (ukeys2_aset2 p (fun l => fold_left (fun acc i => aset i (gIDWTTL P) acc) _ l) (unwanted g) (keys_fold_aset _ _) HU).
Qed.

Lemma UK_upd P o g g' : gupd P o g g' -> UK g -> UK g'.
Proof.
  intros U HU. destruct U; try exact HU.
  - (* U_disc *) destruct HU as [U1 U2]. split; [apply NoDup_keys_filter, U1|]. cbn [unwanted set_idw].
    intros q l. rewrite aget_adel. destruct (Nat.eqb q p); [discriminate | apply U2].
  - (* U_idw *) exact (UK_idontwant P g p idws HU).
  - (* U_clear *) apply UK_clear, HU.
Qed.
Lemma UK_step P sc g o g' out : UK g -> gstep P sc g o = Some (g', out) -> UK g'.
Proof. intros HU H. eapply gstep_preserves; [apply UK_upd | exact H | exact HU]. Qed.
Lemma UK_reach P g log : reach P g log -> UK g.
Proof. apply reach_inv; [split; [constructor | intros p l H; discriminate] | apply UK_upd]. Qed.

(* operations that do not touch peer p's unwanted set *)
Definition quiet_for (p : peer) (o : gop) : bool :=
  match o with
  | GRecvIDontWant q _ => negb (Nat.eqb q p)
  | GCore (ODisconnect q) => negb (Nat.eqb q p)
  | _ => true
  end.

Lemma uttl_upd P o g g' p i : quiet_for p o = true -> is_hb o = false -> gupd P o g g' -> uttl g' p i = uttl g p i.
Proof.
  intros Hq Hh U. destruct U; try discriminate; try reflexivity; cbn in Hq; apply negb_true_iff, Nat.eqb_neq in Hq.
  - (* U_disc *) unfold uttl. cbn [unwanted set_idw]. rewrite aget_adel. destruct (Nat.eqb_spec p p0); [congruence | reflexivity].
  - (* U_idw *) change (uttl (handle_idontwant P g p0 idws) p i = uttl g p i).
    destruct (idontwant_spec P g p0 idws) as [->|(_ & _ & _ & Hu)]; [reflexivity|].
    rewrite Hu. destruct (Nat.eqb_spec p p0); [congruence | reflexivity].
Qed.

Lemma uttl_step P sc g o g' out p i :
  UK g -> quiet_for p o = true -> gstep P sc g o = Some (g', out) ->
  uttl g' p i = if is_hb o then ttl_dec (uttl g p i) else uttl g p i.
Proof.
  intros HU Hq H. destruct (is_hb o) eqn:Hh.
  - destruct (hb_state _ _ _ _ _ _ Hh H) as [c ->]. exact (uttl_clear g p i HU).
  - revert H. apply (gstep_frame P (fun a b => uttl b p i = uttl a p i)); [reflexivity | congruence|].
    intros a b. apply uttl_upd; assumption.
Qed.

Definition hbs (l : list (list (peer * Z) * gop)) : nat := length (filter (fun e => is_hb (snd e)) l).

Lemma uttl_run P p i l : forall g g' out,
  UK g -> forallb (fun e => quiet_for p (snd e)) l = true -> grun P g l = Some (g', out) ->
  uttl g' p i = Nat.iter (hbs l) ttl_dec (uttl g p i).
Proof.
  induction l as [|[sc o] l IH]; intros g g' out HU Hq Hr; [injection Hr as <- <-; reflexivity|].
  cbn [forallb snd] in Hq. apply andb_true_iff in Hq as [Hq1 Hq2].
  apply grun_cons in Hr as (g1 & o1 & o2 & Hs & Hr2 & _).
  rewrite (IH _ _ _ (UK_step _ _ _ _ _ _ HU Hs) Hq2 Hr2), (uttl_step _ _ _ _ _ _ p i HU Hq1 Hs).
  unfold hbs. cbn [filter snd]. destruct (is_hb o); [apply iter_shift | reflexivity].
Qed.

Lemma iter_ttl_dec k n : (1 <= n)%nat -> Nat.iter k ttl_dec (Some n) = if Nat.ltb k n then Some (n - k)%nat else None.
Proof.
  intros Hn. induction k as [|k IH]; [cbn; rewrite Nat.sub_0_r; destruct n; [lia | reflexivity]|].
  change (Nat.iter (S k) ttl_dec (Some n)) with (ttl_dec (Nat.iter k ttl_dec (Some n))). rewrite IH.
  destruct (Nat.ltb_spec k n) as [Hk|Hk]; cbn [ttl_dec].
  - destruct (Nat.ltb_spec 1 (n - k)), (Nat.ltb_spec (S k) n); try lia; [f_equal; lia | reflexivity].
  - destruct (Nat.ltb_spec (S k) n); [lia | reflexivity].
Qed.

(* An IDONTWANT entry with n heartbeats to live is honoured for exactly n more heartbeats, whatever
   else happens meanwhile (as long as the peer neither renews it nor disconnects). *)
Theorem idontwant_ttl P p i l : forall g g' out n,
  UK g -> uttl g p i = Some n -> (1 <= n)%nat -> forallb (fun e => quiet_for p (snd e)) l = true ->
  grun P g l = Some (g', out) ->
  uttl g' p i = if Nat.ltb (hbs l) n then Some (n - hbs l)%nat else None.
Proof.
  intros g g' out n HU Hn Hpos Hq Hr. rewrite (uttl_run P p i l g g' out HU Hq Hr), Hn. apply iter_ttl_dec, Hpos.
Qed.

(* C17: IDONTWANT is only sent for large messages, to v1.2+ mesh peers, never to the sender *)
Theorem idontwant_sent_spec P g from msgs q t ids :
  In (q, t, ids) (idontwant_targets P g from msgs) ->
  q <> from /\ memb q (idw_peers g) = true /\ In q (aget_l t (mesh (core g))) /\ has_queue g q = true
  /\ ids <> []
  /\ forall i, In i ids -> exists m, In m msgs /\ m_id m = i /\ m_topic m = t /\ (gIDWThr P <= m_size m)%nat.
Proof.
  unfold idontwant_targets. intros H. apply in_concat in H as [l [Hl Hin]].
  apply in_map_iff in Hl as [t0 [<- _]].
  destruct (map m_id (filter (fun m => Nat.eqb t0 (m_topic m) && Nat.leb (gIDWThr P) (m_size m)) msgs)) as [|y ys] eqn:Hids; [destruct Hin|].
  apply in_map_iff in Hin as [q0 [E Hq]]. inversion E; subst q0 t0 ids. clear E.
  apply filter_In in Hq as [Hqm Hc]. apply andb_true_iff in Hc as [Hc Hhq]. apply andb_true_iff in Hc as [Hne Hidw].
  apply negb_true_iff, Nat.eqb_neq in Hne.
  repeat split; try assumption; [discriminate|].
  intros i Hi. rewrite <- Hids in Hi. apply in_map_iff in Hi as [m [<- Hm]].
  apply filter_In in Hm as [Hm Hc]. apply andb_true_iff in Hc as [Ht Hsz]. apply Nat.eqb_eq in Ht. apply Nat.leb_le in Hsz.
  exists m. auto.
Qed.

(* C17 / C09: who is sent IHAVE and what it may contain *)
Theorem gossip_ok_spec P sc g t excl obs q ids :
  gossip_ok P sc g t excl obs = true -> In (q, ids) obs ->
  In q (aget_l t (tmap (core g))) /\ ~ In q excl /\ ~ In q (direct (core g)) /\ speaks_mesh (core g) q = true
  /\ gGossipThr P <= score_of sc q
  /\ (length ids <= gMaxIHaveLen P)%nat
  /\ forall i, In i ids -> In i (mc_gossip_ids (mc g) (gHistGossip P) t).
Proof.
  unfold gossip_ok. intros H Hin.
  destruct (mc_gossip_ids (mc g) (gHistGossip P) t) as [|y ys] eqn:Hids; [destruct obs; [destruct Hin | discriminate]|].
  apply andb_true_iff in H as [H Hall]. apply andb_true_iff in H as [H _]. apply andb_true_iff in H as [_ Hsub].
  rewrite forallb_forall in Hall. specialize (Hall _ Hin). cbn [snd] in Hall.
  apply andb_true_iff in Hall as [Hall Hlen]. apply andb_true_iff in Hall as [_ Hs]. apply Nat.eqb_eq in Hlen.
  assert (Hq : In q (map fst obs)) by exact (in_map fst _ _ Hin).
  apply (subset_In _ _ _ Hsub), filter_In in Hq. destruct Hq as [Hqt Hc].
  apply andb_true_iff in Hc as [Hc Hscore]. apply andb_true_iff in Hc as [Hc Hsm]. apply andb_true_iff in Hc as [Hex Hdir].
  apply negb_true_iff, memb_false_In in Hex, Hdir. apply Z.leb_le in Hscore.
  repeat split; try assumption.
  - etransitivity; [apply Nat.eq_le_incl, Hlen | apply Nat.le_min_r].
  - intros i Hi. eapply subset_In; eassumption.
Qed.

Lemma hb_out_In P sc g obs fobs gobs g' out c ctls x :
  hb_effect P sc g obs fobs gobs g' out c ctls -> In x out ->
  (exists p, x = OPenalty p (count_peer p (broken g)) /\ In p (broken g) /\ has_queue g p = true)
  \/ (exists c0, x = OCtl c0)
  \/ (exists t pes q ids, x = OIHave q t ids /\ In (t, pes) gobs /\ In (q, ids) pes).
Proof.
  intros X Hin. rewrite (hb_out X) in Hin. apply in_app_or in Hin as [Hin|Hin].
  - left. apply in_map_iff in Hin as (p & <- & Hp). apply filter_In in Hp as [Hp Hq].
    exists p. split; [reflexivity|]. split; [exact (proj1 (dedup_In dedup eq_refl (fun _ _ => eq_refl) _ _) Hp) | exact Hq].
  - right. apply in_app_or in Hin as [Hin|Hin]; [left; apply in_map_iff in Hin; destruct Hin as (c0 & <- & _); eauto|].
    right. apply in_concat in Hin as (l & Hl & Hin). apply in_map_iff in Hl as ([t pes] & <- & He).
    apply in_map_iff in Hin as ([q ids] & <- & Hpe). exists t, pes, q, ids. auto.
Qed.

Theorem ihave_emission P sc g obs fobs gobs g' out q t ids :
  gstep P sc g (GHeartbeat obs fobs gobs) = Some (g', out) -> In (OIHave q t ids) out ->
  exists c excl,
    core g' = c
    /\ (aget t (mesh c) = Some excl \/ (aget t (mesh c) = None /\ aget t (fanout c) = Some excl))
    /\ In q (aget_l t (tmap c)) /\ ~ In q excl /\ ~ In q (direct c) /\ speaks_mesh c q = true
    /\ gGossipThr P <= score_of sc q
    /\ (length ids <= gMaxIHaveLen P)%nat
    /\ forall i, In i ids -> In i (mc_gossip_ids (mc g) (gHistGossip P) t).
Proof.
  intros H Hin. destruct (gstep_hb _ _ _ _ _ _ _ _ H) as (c & ctls & X).
  destruct (hb_out_In _ _ _ _ _ _ _ _ _ _ _ X Hin) as [(p & [=] & _)|[(c0 & [=])|(t0 & pes & q0 & ids0 & [= <- <- <-] & He & Hpe)]].
  assert (Hg : aget t gobs = Some pes) by (apply In_aget; [exact (nodup_b_NoDup _ (hb_nodup X)) | exact He]).
  pose proof (proj1 (forallb_forall _ _) (hb_topics X) _ He) as Htop. cbn [fst] in Htop.
  (* t is a mesh topic or a fanout topic, and the heartbeat checked the gossip of each against its members *)
  assert (Hex : exists excl, (aget t (mesh c) = Some excl \/ (aget t (mesh c) = None /\ aget t (fanout c) = Some excl))
                  /\ In (t, excl) (map (fun e => (fst e, snd e)) (mesh c) ++ map (fun e => (fst e, snd e)) (fanout c))).
  { assert (Hm : forall l excl, aget t l = Some excl -> In (t, excl) (map (fun e : topic * list peer => (fst e, snd e)) l)).
    { intros l excl E. apply in_map_iff. exists (t, excl). split; [reflexivity | apply aget_In, E]. }
    destruct (aget t (mesh c)) as [excl|] eqn:Em; [exists excl; split; [auto | apply in_or_app; left; apply Hm, Em]|].
    destruct (aget t (fanout c)) as [excl|] eqn:Ef; [|discriminate].
    exists excl. split; [auto | apply in_or_app; right; apply Hm, Ef]. }
  destruct Hex as (excl & Hwhere & Hex).
  pose proof (proj1 (forallb_forall _ _) (hb_gossip X) _ Hex) as Hok. cbn [fst snd] in Hok. rewrite Hg in Hok.
  exists c, excl. rewrite (hb_post X). split; [reflexivity|]. split; [exact Hwhere|].
  exact (gossip_ok_spec P sc _ t excl pes q ids Hok Hpe).
Qed.

(* C17: promise penalties *)
Lemma count_peer_broken p (f : (mid * peer) * Z -> bool) l :
  count_peer p (map (fun e => snd (fst e)) (filter f l))
  = length (filter (fun e => f e && Nat.eqb p (snd (fst e))) l).
Proof.
  unfold count_peer. induction l as [|e l IH]; [reflexivity|]. cbn [filter].
  destruct (f e); cbn [map filter andb]; [|exact IH].
  destruct (Nat.eqb p (snd (fst e))); cbn [length]; rewrite IH; reflexivity.
Qed.

(* every outstanding promise was created by an IWANT this node really sent to that peer for that id,
   and expires follow-up time after the request *)
Definition PI (P : gparams) (g : gstate) (log : list entry) : Prop :=
  forall i p e, In ((i, p), e) (promises g) ->
    exists en ih a pr, In en log /\ e_op en = GRecvIHave p ih a pr /\ In (OIWant p a) (e_out en) /\ In i a
                       /\ e = now (core (e_pre en)) + gFollowup P.

Lemma PI_incl P g g' log : incl (promises g') (promises g) -> PI P g log -> PI P g' log.
Proof. intros Hi HP i p e Hin. exact (HP i p e (Hi _ Hin)). Qed.
Lemma PI_cons P g log en : PI P g log -> PI P g (en :: log).
Proof.
  intros HP i p e Hin. destruct (HP i p e Hin) as (en0 & ih & a & pr & A & B). exists en0, ih, a, pr. split; [right; exact A | exact B].
Qed.

(* operations other than IHAVE only ever remove promises *)
Lemma PI_upd P log o g g' : is_ihave o = false -> gupd P o g g' -> PI P g log -> PI P g' log.
Proof.
  intros Ho U. apply PI_incl. destruct U; try discriminate; try apply incl_refl; intros x Hx; apply filter_In in Hx; apply Hx.
Qed.

Lemma PI_reach P g log : reach P g log -> PI P g log.
Proof.
  apply (reach_log_inv P (PI P) is_ihave).
  - intros i p e [].
  - intros g0 log0 sc o g' out _ IH Ho Hs. destruct o as [| | | | |q ih a pr| | |]; try discriminate.
    destruct (gstep_ihave _ _ _ _ _ _ _ _ _ Hs) as [[-> [->| ->]]|(-> & _ & A)]; try exact (PI_cons P g0 log0 _ IH).
    destruct (ia_state A) as (prs & -> & [->|[j [Hj ->]]]); [exact (PI_cons P g0 log0 _ IH)|].
    intros i p e [[= <- <- <-]|Hin]; [|exact (PI_cons P g0 log0 _ IH i p e Hin)].
    eexists _, ih, a, pr. split; [left; reflexivity|]. cbn [e_op e_out e_pre]. repeat split; auto. left. reflexivity.
  - intros g0 log0 en _. apply PI_cons.
  - intros o g0 g' log0. apply PI_upd.
Qed.

(* A peer is penalised at a heartbeat only for promises that are past their follow-up deadline while
   the promised message has still not arrived from anyone, and the penalty counts exactly those. *)
Theorem penalty_only_if_never_arrived P g log sc obs fobs gobs g' out p n :
  reach P g log -> gstep P sc g (GHeartbeat obs fobs gobs) = Some (g', out) -> In (OPenalty p n) out ->
  n = length (filter (fun e => (snd e <? now (core g)) && Nat.eqb p (snd (fst e))) (promises g))
  /\ (0 < n)%nat
  /\ forall i e, In ((i, p), e) (promises g) ->
       memb i (seen g) = false
       /\ exists en ih a pr, In en log /\ e_op en = GRecvIHave p ih a pr /\ In (OIWant p a) (e_out en) /\ In i a
                             /\ e = now (core (e_pre en)) + gFollowup P.
Proof.
  intros Hr H Hin. destruct (gstep_hb _ _ _ _ _ _ _ _ H) as (c & ctls & X).
  destruct (hb_out_In _ _ _ _ _ _ _ _ _ _ _ X Hin) as [(q & [= <- ->] & Hq & _)|[(c0 & [=])|(t & pes & q & ids & [=] & _)]].
  unfold broken in *. rewrite count_peer_broken. split; [reflexivity|]. split.
  - apply in_map_iff in Hq as [e0 [Ep He0]]. apply filter_In in He0 as [He0 Hex].
    apply (In_length_pos e0), filter_In. split; [exact He0|].
    apply andb_true_intro. split; [exact Hex | apply Nat.eqb_eq; symmetry; exact Ep].
  - intros i e Hp. split; [exact (proj1 (GI_reach _ _ _ Hr) _ _ _ Hp) | exact (PI_reach _ _ _ Hr _ _ _ Hp)].
Qed.

(* C17: the cache windows along router histories.  What the node has not seen is nowhere in the cache, so a message
   it publishes enters the window at slot 0. *)
Definition unseen_gone (P : gparams) (g : gstate) : Prop := forall i, memb i (seen g) = false -> Gone (gHistLen P) (mc g) i.

Lemma unseen_gone_put P g m : unseen_gone P g -> unseen_gone P (put_state g m).
Proof.
  intros HG j Hj. cbn [seen put_state mc] in *. rewrite memb_sadd in Hj. apply orb_false_iff in Hj as [Hne Hj].
  apply Gone_put; [apply Nat.eqb_neq, Hne | apply HG, Hj].
Qed.

Lemma unseen_gone_upd P o g g' : gupd P o g g' -> unseen_gone P g -> unseen_gone P g'.
Proof.
  intros U HG. destruct U; try exact HG; try apply unseen_gone_put, HG; intros j Hj.
  - (* U_local *) apply HG. cbn [seen local_state] in Hj. rewrite memb_sadd in Hj. apply orb_false_iff in Hj. apply Hj.
  - (* U_get *) apply Gone_get, HG, Hj.
  - (* U_shift *) apply Gone_shift, HG, Hj.
Qed.

Lemma unseen_gone_reach P g log : reach P g log -> unseen_gone P g.
Proof. apply reach_inv; [intros i _; apply Gone_init | apply unseen_gone_upd]. Qed.

(* The cache only ever sees puts, gets and shifts: from a to b it goes through a run of cache
   operations with n shifts that never puts an id again that a has seen. *)
Definition mtr (n : nat) (a b : gstate) : Prop :=
  exists ops, mc b = mrun (mc a) ops /\ shifts ops = n
    /\ forall i, memb i (seen a) = true -> memb i (seen b) = true /\ forallb (fun o => negb (puts_id i o)) ops = true.

Lemma mtr_same a b : mc b = mc a -> (forall i, memb i (seen a) = true -> memb i (seen b) = true) -> mtr 0 a b.
Proof. intros E H. exists []. split; [exact E|]. split; [reflexivity|]. auto. Qed.
Lemma mtr_trans n m a b c : mtr n a b -> mtr m b c -> mtr (n + m) a c.
Proof.
  intros (o1 & E1 & S1 & H1) (o2 & E2 & S2 & H2). exists (o1 ++ o2). unfold mrun, shifts in *.
  rewrite fold_left_app, filter_app, app_length, <- E1, S1, S2. split; [exact E2|]. split; [reflexivity|].
  intros i Hi. destruct (H1 i Hi) as [Hb N1]. destruct (H2 i Hb) as [Hc N2]. rewrite forallb_app, N1, N2. auto.
Qed.

Lemma mtr_put g m : memb (m_id m) (seen g) = false -> mtr 0 g (put_state g m).
Proof.
  intros Hm. exists [MPut (m_id m) (m_topic m)]. split; [reflexivity|]. split; [reflexivity|]. intros j Hj. cbn [seen put_state].
  rewrite memb_sadd, Hj, orb_true_r. split; [reflexivity|]. cbn. rewrite andb_true_r. apply negb_true_iff, Nat.eqb_neq. congruence.
Qed.

Lemma gupd_mtr P o a b : is_hb o = false -> gupd P o a b -> mtr 0 a b.
Proof.
  intros Hh U. destruct U; try discriminate; try (apply mtr_put; assumption); try (apply mtr_same; [reflexivity | auto]).
  - (* U_local *) intros j Hj. cbn. rewrite memb_sadd, Hj. apply orb_true_r.
  - (* U_get *) exists [MGet i p]. repeat split; auto.
Qed.

Lemma gstep_mtr P sc g o g' out : gstep P sc g o = Some (g', out) -> mtr (if is_hb o then 1 else 0) g g'.
Proof.
  intros H. destruct (is_hb o) eqn:Hh.
  - destruct (hb_state _ _ _ _ _ _ Hh H) as [c ->]. exists [MShift]. repeat split; auto.
  - revert H. apply (gstep_frame P (mtr 0)); [intros a; apply mtr_same; auto | apply (mtr_trans 0 0) | intros a b; apply gupd_mtr, Hh].
Qed.

Lemma grun_mtr P l : forall g g' out, grun P g l = Some (g', out) -> mtr (hbs l) g g'.
Proof.
  induction l as [|[sc o] l IH]; intros g g' out H; [injection H as <- <-; apply mtr_same; auto|].
  apply grun_cons in H as (g1 & o1 & o2 & Hs & Hr & _).
  replace (hbs ((sc, o) :: l)) with ((if is_hb o then 1 else 0) + hbs l)%nat by (unfold hbs; cbn; destruct (is_hb o); reflexivity).
  eapply mtr_trans; [eapply gstep_mtr, Hs | eapply IH, Hr].
Qed.

(* so the window theorem of the cache alone applies to router histories: a message the node publishes stays
   retrievable for exactly HistoryLength heartbeats and is advertised for the first HistoryGossip *)
Theorem published_message_window P g0 log sc0 m ch g out0 l g' out p :
  (0 < gHistLen P)%nat -> (gHistGossip P <= gHistLen P)%nat ->
  reach P g0 log -> memb (m_id m) (seen g0) = false ->
  gstep P sc0 g0 (GPublish m ch) = Some (g, out0) ->
  grun P g l = Some (g', out) ->
  (retrievable (mc g') (m_id m) p = true <-> hbs l < gHistLen P)%nat
  /\ (In (m_id m) (mc_gossip_ids (mc g') (gHistGossip P) (m_topic m)) <-> hbs l < gHistGossip P)%nat.
Proof.
  intros Hpos Hle Hr Hun Hs Hrun.
  assert (Hg : core_only (put_state g0 m) g).
  { change (gstep0 P sc0 g0 (GPublish m ch) = Some (g, out0)) in Hs.
    destruct (gstep0_publish P sc0 g0 m ch) as [ts E]. rewrite E, Hun in Hs. clear E.
    destruct (publish P sc0 g0 m ch) as [[g1 rs]|] eqn:Hp; [|discriminate]. injection Hs as -> <-.
    exact (publish_frame _ _ _ _ _ _ _ Hp). }
  destruct Hg as [c ->]. destruct (grun_mtr _ _ _ _ _ Hrun) as (ops & Emc & <- & Hno).
  destruct (Hno (m_id m)) as [_ Hnp]; [cbn; rewrite memb_sadd, Nat.eqb_refl; reflexivity|].
  rewrite Emc. cbn [mc set_core put_state].
  destruct (mcache_window (gHistLen P) (gHistGossip P) (mc g0) (m_id m) (m_topic m) ops p Hpos Hle (unseen_gone_reach _ _ _ Hr _ Hun) Hnp)
    as (A & B & _).
  split; assumption.
Qed.

(* C06: who gets a copy *)
Definition excluded (m : msg) (q : peer) : bool :=
  (match m_from m with Some x => Nat.eqb q x | None => false end)
  || (match m_author m with Some x => Nat.eqb q x | None => false end).
Definition own_flood (P : gparams) (m : msg) : bool :=
  gFlood P && (match m_from m with None => true | Some _ => false end).
(* the eager-push overlay used for this message: the mesh when joined, otherwise the fanout AFTER the call *)
Definition overlay (g g' : gstate) (t : topic) : list peer :=
  match aget t (mesh (core g)) with Some gm => gm | None => aget_l t (fanout (core g')) end.

Lemma fanout_for_publishing_spec P sc g t ch g' gm :
  fanout_for_publishing P sc g t ch = Some (g', gm) ->
  aget_l t (fanout (core g')) = gm
  /\ aget t (lastpub (core g')) = Some (now (core g))
  /\ mesh (core g') = mesh (core g) /\ tmap (core g') = tmap (core g) /\ direct (core g') = direct (core g) /\ peers (core g') = peers (core g)
  /\ ( (* an existing fanout is used as it is: its members are kept *)
       (aget_l t (fanout (core g)) <> [] /\ gm = aget_l t (fanout (core g)))
       \/ (* a new one: up to D distinct eligible peers *)
       (aget_l t (fanout (core g)) = [] /\ gm = ch /\ NoDup gm /\ (length gm <= pD (gCore P) \/ pD (gCore P) = 0)%nat
        /\ forall q, In q gm -> In q (aget_l t (tmap (core g))) /\ speaks_mesh (core g) q = true
                                /\ ~ In q (direct (core g)) /\ pPublishThr (gCore P) <= score_of sc q)).
Proof.
  unfold fanout_for_publishing. intros H.
  destruct (aget_l t (fanout (core g))) as [|x xs] eqn:Ecur.
  - destruct (pick_ok ch _ _) eqn:Hpk; [|discriminate]. injection H as <- <-.
    cbn [core set_core fanout lastpub set_fanout mesh tmap direct peers].
    split; [destruct ch as [|c0 cs]; [exact Ecur | apply aget_l_of, aget_aset_same]|].
    split; [apply aget_aset_same|]. repeat split; try reflexivity.
    right. split; [reflexivity|]. split; [reflexivity|].
    split; [|split].
    + exact (pick_ok_nodup _ _ _ Hpk).
    + rewrite (pick_ok_length _ _ _ Hpk). unfold take_count. destruct (pD (gCore P)) as [|d]; [right; reflexivity|].
      left. apply Nat.le_min_l.
    + intros q Hq. destruct (picked_full _ _ _ _ _ _ Hpk Hq) as (A & B & C). cbn beta in C.
      apply andb_true_iff in C as [C1 C2]. apply negb_true_iff, memb_false_In in C1. apply Z.leb_le in C2. auto.
  - destruct ch; [|discriminate]. injection H as <- <-.
    cbn [core set_core fanout lastpub set_fanout mesh tmap direct peers].
    split; [exact Ecur|]. split; [apply aget_aset_same|]. repeat split; try reflexivity.
    left. split; [discriminate | reflexivity].
Qed.

Lemma recipients_In P sc g m ch g' r :
  recipients P sc g m ch = Some (g', r) ->
  let s := core g in let t := m_topic m in let tm := aget_l t (tmap s) in
  forall q, In q r <->
    aget t (tmap s) <> None /\ excluded m q = false
    /\ if own_flood P m then In q tm /\ (In q (direct s) \/ pPublishThr (gCore P) <= score_of sc q)
       else (In q (direct s) /\ In q tm)
            \/ (In q tm /\ speaks_mesh s q = false /\ pPublishThr (gCore P) <= score_of sc q)
            \/ (In q (overlay g g' t) /\ is_unwanted g q (m_id m) = false).
Proof.
  unfold recipients, own_flood, excluded. cbv zeta. intros H q.
  change (aget_l (m_topic m) (tmap (core g))) with (match aget (m_topic m) (tmap (core g)) with Some v => v | None => [] end).
  destruct (aget (m_topic m) (tmap (core g))) as [tm|];
    [|injection H as <- <-; split; [intros [] | intros [Hn _]; now destruct Hn]].
  assert (Htm : Some tm <> None) by discriminate.
  destruct (gFlood P && _).
  - injection H as <- <-. rewrite filter_In, andb_true_iff, negb_true_iff, orb_true_iff, memb_In, Z.leb_le.
    split; [intros (Ht & He & Hd) | intros (_ & He & Ht & Hd)]; auto.
  - match type of H with match ?x with _ => _ end = _ => destruct x as [[g1 gm]|] eqn:Hsel end; [|discriminate].
    injection H as -> <-.
    assert (Eov : overlay g g' (m_topic m) = gm).
    { unfold overlay. destruct (aget (m_topic m) (mesh (core g))).
      - destruct ch; [|discriminate]. now injection Hsel as _ ->.
      - apply (fanout_for_publishing_spec _ _ _ _ _ _ _ Hsel). }
    rewrite Eov, filter_In, negb_true_iff, In_fold_sadd, in_app_iff, !filter_In, negb_true_iff, memb_In, andb_true_iff, negb_true_iff, Z.leb_le.
    split; [intros [Hd He] | intros (_ & He & Hd)]; auto.
Qed.

Theorem recipients_spec P sc g m ch g' r :
  recipients P sc g m ch = Some (g', r) ->
  let s := core g in let t := m_topic m in let tm := aget_l t (tmap s) in
  (* never: the source, the author, somebody not known to be in the topic *)
  (forall q, In q r -> excluded m q = false /\ (In q tm \/ In q (overlay g g' t)))
  /\ (aget t (tmap s) = None -> r = [])
  /\ (* flood publishing of an own message: exactly the topic peers at or above the publish threshold (and direct ones) *)
     (own_flood P m = true ->
        forall q, In q r <-> In q tm /\ excluded m q = false /\ (In q (direct s) \/ pPublishThr (gCore P) <= score_of sc q))
  /\ (* otherwise: always direct peers, floodsub peers above the threshold, the overlay minus IDONTWANT senders *)
     (own_flood P m = false -> aget t (tmap s) <> None ->
        forall q, excluded m q = false ->
          (In q (direct s) /\ In q tm -> In q r)
          /\ (In q tm /\ speaks_mesh s q = false /\ pPublishThr (gCore P) <= score_of sc q -> In q r)
          /\ (In q (overlay g g' t) /\ is_unwanted g q (m_id m) = false -> In q r)
          /\ (In q r -> (In q (direct s) /\ In q tm)
                        \/ (In q tm /\ speaks_mesh s q = false /\ pPublishThr (gCore P) <= score_of sc q)
                        \/ (In q (overlay g g' t) /\ is_unwanted g q (m_id m) = false))).
Proof.
  intros H. pose proof (recipients_In _ _ _ _ _ _ _ H) as Hiff. cbv zeta in *. split; [|split; [|split]].
  - intros q Hq. apply Hiff in Hq as (_ & Hex & Hq). split; [exact Hex|].
    destruct (own_flood P m); [left; apply Hq | destruct Hq as [Hq|[Hq|Hq]]; [left|left|right]; apply Hq].
  - intros Hn. destruct r as [|q r]; [reflexivity|]. destruct (proj1 (Hiff q) (or_introl eq_refl)) as [Hne _]. contradiction.
  - intros Hf q. rewrite Hiff, Hf. split; [intros (_ & Hex & Hin & Hd); auto|].
    intros (Hin & Hex & Hd). split; [exact (aget_l_In _ _ _ Hin) | auto].
  - intros Hf Hn q Hex. specialize (Hiff q). rewrite Hf in Hiff. destruct Hiff as [H1 H2].
    repeat split; [intros Hq; apply H2; repeat split; auto .. | intros Hq; apply H1, Hq].
Qed.

(* the copies actually queued are the recipients that have an outbound queue *)
Theorem publish_sends P sc g m ch g' r :
  publish P sc g m ch = Some (g', r) ->
  exists g1 r0, recipients P sc (put_state g m) m ch = Some (g1, r0) /\ g' = g1 /\ r = filter (has_queue g1) r0.
Proof.
  unfold publish. fold (put_state g m). intros H.
  destruct (recipients P sc (put_state g m) m ch) as [[g1 r0]|] eqn:Hr; [|discriminate].
  injection H as <- <-. eauto.
Qed.

Theorem local_publication_sends_nothing P sc g m g' out q i :
  gstep P sc g (GPublishLocal m) = Some (g', out) -> ~ In (OMsg q i) out.
Proof.
  change (gstep P sc g (GPublishLocal m)) with (gstep0 P sc g (GPublishLocal m)).
  destruct (gstep0_publish_local P sc g m) as [l ->]. intros H Hin.
  destruct (memb (m_id m) (seen g)); injection H as <- <-; apply in_map_iff in Hin; destruct Hin as [x [E _]]; discriminate.
Qed.

(* C09: threshold gates *)
Theorem graylisted_ignored P sc g o p :
  sender_of o = Some p -> accept_from P sc g p = false -> gstep P sc g o = Some (g, []).
Proof. intros Hs Ha. unfold gstep. rewrite Hs, Ha. reflexivity. Qed.

Theorem graylist_rule P sc g p :
  accept_from P sc g p = false <-> (~ In p (direct (core g)) /\ score_of sc p < gGraylistThr P).
Proof.
  unfold accept_from. rewrite orb_false_iff, negb_false_iff, Z.ltb_lt, memb_false_In. tauto.
Qed.

Theorem direct_always_accepted P sc g p : In p (direct (core g)) -> accept_from P sc g p = true.
Proof. intros H. unfold accept_from. apply memb_In in H. rewrite H. reflexivity. Qed.

Theorem below_gossip_threshold_ihave_ignored P sc g p ih a pr g' a' :
  score_of sc p < gGossipThr P -> handle_ihave P sc g p ih a pr = Some (g', a') -> g' = g /\ a' = [].
Proof.
  intros Hs. apply Z.ltb_lt in Hs. unfold handle_ihave. rewrite Hs. destruct a; [|discriminate].
  intros H. injection H as <- <-. auto.
Qed.

Theorem below_gossip_threshold_iwant_unanswered P sc g p ids :
  score_of sc p < gGossipThr P -> handle_iwant P sc g p ids = (g, []).
Proof. intros Hs. apply Z.ltb_lt in Hs. unfold handle_iwant. rewrite Hs. reflexivity. Qed.
