(* C19: the trace a transition owes its tracer ([diff_events]) replays, from any view that agrees with the state before
   the transition, to a view that agrees with the state after it - for ARBITRARY pairs of views - and its JOIN / LEAVE
   events alternate.  Lifted to every history of the router model in [trace_faithful]. *)
From Coq Require Import List Bool ZArith.
Import ListNotations.
From PS Require Import Model.Router Model.Trace Proofs.ListFacts Proofs.SetMapProofs Proofs.TraceProofs.

Definition has_peer (v : tview) (q : peer) : bool := memb q (tv_peers v).

(* pointwise agreement of two views: same joined topics, same meshes, same peers, as sets *)
Definition vagree (v w : tview) : Prop :=
  (forall u, joined v u = joined w u) /\ (forall u q, in_mesh v u q = in_mesh w u q) /\ (forall q, has_peer v q = has_peer w q).
Lemma vagree_refl v : vagree v v.
Proof. repeat split. Qed.

Lemma replay_app v l1 l2 : replay v (l1 ++ l2) = replay (replay v l1) l2.
Proof. apply fold_left_app. Qed.
Lemma replay_map {X} (mk : X -> tev) L : forall v, replay v (map mk L) = fold_left (fun s x => replay1 s (mk x)) L v.
Proof. induction L as [|x L IH]; intros v; [reflexivity | apply IH]. Qed.

(* A boolean observable [ob] along a run of steps each of which only removes from it, or only adds to it (as far as an
   observable [c] that the run leaves alone permits); a run that leaves it alone is ListFacts.fold_left_same. *)
Section Fold.
  Context {S E : Type} (step : S -> E -> S) (ob : S -> bool).
  Lemma fold_and (k : E -> bool) l :
    (forall s e, In e l -> ob (step s e) = ob s && negb (k e)) -> forall s, ob (fold_left step l s) = ob s && negb (existsb k l).
  Proof.
    induction l as [|e l IH]; intros H s; cbn; [now rewrite andb_true_r|].
    rewrite IH by (intros; apply H; now right). rewrite H by now left. now rewrite negb_orb, andb_assoc.
  Qed.
  Lemma fold_or (c : S -> bool) (k : E -> bool) l :
    (forall s e, In e l -> c (step s e) = c s /\ ob (step s e) = ob s || (c s && k e)) ->
    forall s, ob (fold_left step l s) = ob s || (c s && existsb k l).
  Proof.
    induction l as [|e l IH]; intros H s; cbn; [now rewrite andb_false_r, orb_false_r|].
    destruct (H s e) as [Hc Ho]; [now left|]. rewrite IH, Hc, Ho by (intros; apply H; now right).
    now rewrite andb_orb_distrib_r, orb_assoc.
  Qed.
End Fold.

(* The six phases of [diff_events], each by the replay laws of its one kind of event.  [memb x L] is [existsb (Nat.eqb x) L]. *)
Definition is_prune (e : tev) : bool := match e with TPrune _ _ => true | _ => false end.
Definition is_graft (e : tev) : bool := match e with TGraft _ _ => true | _ => false end.
Definition pruned (l : list tev) (u : topic) (q : peer) : bool :=
  existsb (fun e => match e with TPrune p t => Nat.eqb t u && Nat.eqb p q | _ => false end) l.
Definition grafted (l : list tev) (u : topic) (q : peer) : bool :=
  existsb (fun e => match e with TGraft p t => Nat.eqb t u && Nat.eqb p q | _ => false end) l.

Lemma phase_leaves L v :
  (forall u, joined (replay v (map TLeave L)) u = joined v u && negb (memb u L))
  /\ (forall u q, in_mesh (replay v (map TLeave L)) u q = in_mesh v u q && negb (memb u L))
  /\ (forall q, has_peer (replay v (map TLeave L)) q = has_peer v q).
Proof.
  rewrite replay_map. unfold has_peer. repeat split; intros;
    [apply (fold_and _ (fun s => joined s u)) | apply (fold_and _ (fun s => in_mesh s u q))
    | apply (fold_left_same (fun s => memb q (tv_peers s)))];
    intros s t _; rewrite ?joined_replay1, ?in_mesh_replay1, ?peers_replay1; auto using andb_comm.
Qed.
Lemma phase_removes G v :
  (forall u, joined (replay v (map TRemovePeer G)) u = joined v u)
  /\ (forall u q, in_mesh (replay v (map TRemovePeer G)) u q = in_mesh v u q && negb (memb q G))
  /\ (forall q, has_peer (replay v (map TRemovePeer G)) q = has_peer v q && negb (memb q G)).
Proof.
  rewrite replay_map. unfold has_peer. repeat split; intros;
    [apply (fold_left_same (fun s => joined s u)) | apply (fold_and _ (fun s => in_mesh s u q))
    | apply (fold_and _ (fun s => memb q (tv_peers s)))];
    intros s p _; rewrite ?joined_replay1, ?in_mesh_replay1, ?peers_replay1, ?(Nat.eqb_sym p q); auto using andb_comm.
Qed.
Lemma phase_prunes l v : forallb is_prune l = true ->
  (forall u, joined (replay v l) u = joined v u)
  /\ (forall u q, in_mesh (replay v l) u q = in_mesh v u q && negb (pruned l u q))
  /\ (forall q, has_peer (replay v l) q = has_peer v q).
Proof.
  intros Hl. rewrite forallb_forall in Hl. unfold has_peer.
  repeat split; intros;
    [apply (fold_left_same (fun s => joined s u)) | apply (fold_and replay1 (fun s => in_mesh s u q))
    | apply (fold_left_same (fun s => memb q (tv_peers s)))];
    intros s e He; specialize (Hl e He); destruct e; try discriminate Hl;
    rewrite ?joined_replay1, ?in_mesh_replay1, ?peers_replay1, 1?(Nat.eqb_sym t u); reflexivity.
Qed.
Lemma phase_joins J v :
  (forall u, joined (replay v (map TJoin J)) u = joined v u || memb u J)
  /\ (forall u q, in_mesh (replay v (map TJoin J)) u q = in_mesh v u q)
  /\ (forall q, has_peer (replay v (map TJoin J)) q = has_peer v q).
Proof.
  rewrite replay_map. unfold has_peer. repeat split; intros;
    [apply (fold_or _ (fun s => joined s u) (fun _ => true)) | apply (fold_left_same (fun s => in_mesh s u q))
    | apply (fold_left_same (fun s => memb q (tv_peers s)))];
    intros s t _; rewrite ?joined_replay1, ?in_mesh_replay1, ?peers_replay1; auto using orb_comm.
Qed.
Lemma phase_adds C v :
  (forall u, joined (replay v (map TAddPeer C)) u = joined v u)
  /\ (forall u q, in_mesh (replay v (map TAddPeer C)) u q = in_mesh v u q)
  /\ (forall q, has_peer (replay v (map TAddPeer C)) q = has_peer v q || memb q C).
Proof.
  rewrite replay_map. unfold has_peer. repeat split; intros;
    [apply (fold_left_same (fun s => joined s u)) | apply (fold_left_same (fun s => in_mesh s u q))
    | apply (fold_or _ (fun s => memb q (tv_peers s)) (fun _ => true))];
    intros s p _; rewrite ?joined_replay1, ?in_mesh_replay1, ?peers_replay1; auto using orb_comm.
Qed.
(* a GRAFT takes effect only in a joined topic, and no GRAFT changes which topics are joined *)
Lemma phase_grafts l v : forallb is_graft l = true ->
  (forall u, joined (replay v l) u = joined v u)
  /\ (forall u q, in_mesh (replay v l) u q = in_mesh v u q || (joined v u && grafted l u q))
  /\ (forall q, has_peer (replay v l) q = has_peer v q).
Proof.
  intros Hl. rewrite forallb_forall in Hl. unfold has_peer.
  repeat split; intros;
    [apply (fold_left_same (fun s => joined s u)) | apply (fold_or replay1 (fun s => in_mesh s u q) (fun s => joined s u))
    | apply (fold_left_same (fun s => memb q (tv_peers s)))];
    intros s e He; specialize (Hl e He); destruct e; try discriminate Hl;
    rewrite ?joined_replay1, ?in_mesh_replay1, ?peers_replay1; try reflexivity.
  split; [reflexivity|]. rewrite orb_comm, (Nat.eqb_sym t u), (Nat.eqb_sym p q). f_equal.
  destruct (Nat.eqb_spec u t) as [->|]; [now rewrite andb_assoc | now rewrite !andb_false_r].
Qed.

Lemma memb_dedupn x l : memb x (dedupn l) = memb x l.
Proof. apply eq_true_iff_eq. rewrite !memb_In. exact (dedup_In dedupn eq_refl (fun _ _ => eq_refl) x l). Qed.
Lemma nodup_dedupn l : nodup_b (dedupn l) = true.
Proof.
  induction l as [|y l IH]; [reflexivity|]. cbn [dedupn nodup_b]. rewrite memb_filter, Nat.eqb_refl, andb_false_r. apply nodup_filter, IH.
Qed.
Lemma in_mesh_at v u q : in_mesh v u q = memb q (mesh_at v u).
Proof. unfold in_mesh, mesh_at. destruct (aget u (tv_mesh v)); reflexivity. Qed.
Lemma in_mesh_joined v u q : in_mesh v u q = true -> joined v u = true.
Proof. unfold in_mesh, joined. destruct (aget u (tv_mesh v)); [reflexivity | discriminate]. Qed.

Lemma memb_left a b u : memb u (ev_left a b) = joined a u && negb (joined b u).
Proof. unfold ev_left. rewrite memb_dedupn, memb_filter, memb_keys. reflexivity. Qed.
Lemma memb_joins a b u : memb u (ev_joins a b) = joined b u && negb (joined a u).
Proof. exact (memb_left b a u). Qed.
Lemma memb_gone a b q : memb q (ev_gone a b) = has_peer a q && negb (has_peer b q).
Proof. unfold ev_gone. rewrite memb_filter. reflexivity. Qed.
Lemma memb_came a b q : memb q (ev_came a b) = has_peer b q && negb (has_peer a q).
Proof. exact (memb_gone b a q). Qed.

Lemma existsb_pick (h : nat -> bool) u K :
  existsb (fun t => Nat.eqb t u && h t) K = memb u K && h u.
Proof.
  induction K as [|t K IH]; [reflexivity|]. rewrite memb_cons. cbn [existsb]. rewrite IH, (Nat.eqb_sym u t).
  destruct (Nat.eqb_spec t u) as [->|]; [|reflexivity]. cbn. destruct (h u), (memb u K); reflexivity.
Qed.
(* the events of one topic [t] among those about [u] and [q] *)
Lemma existsb_topic (mk : peer -> topic -> tev) (f : tev -> bool) t u q l :
  (forall p, f (mk p t) = Nat.eqb t u && Nat.eqb p q) ->
  existsb f (map (fun p => mk p t) l) = Nat.eqb t u && memb q l.
Proof.
  intros Hf. rewrite existsb_map, (existsb_ext _ (fun p => Nat.eqb t u && Nat.eqb q p)) by (intros; now rewrite Hf, (Nat.eqb_sym x q)).
  induction l as [|p l IH]; cbn; [now rewrite andb_false_r|]. fold (memb q l). now rewrite IH, andb_orb_distrib_r.
Qed.

Lemma pruned_spec a b u q :
  pruned (ev_prunes a b) u q = joined a u && joined b u && in_mesh a u q && negb (in_mesh b u q) && negb (memb q (ev_gone a b)).
Proof.
  unfold pruned, ev_prunes. rewrite existsb_concat, existsb_map.
  rewrite (existsb_ext _ (fun t => Nat.eqb t u && (has_topic b t && memb q (filter (fun p => negb (memb p (mesh_at b t))
                                                                                        && negb (memb p (ev_gone a b))) (mesh_at a t))))).
  - rewrite existsb_pick, memb_keys, memb_filter, !in_mesh_at. unfold joined, has_topic.
    destruct (aget u (tv_mesh a)), (aget u (tv_mesh b)), (memb q (mesh_at a u)), (memb q (mesh_at b u)), (memb q (ev_gone a b)); reflexivity.
  - intros t. destruct (has_topic b t); [apply (existsb_topic TPrune); reflexivity | now rewrite andb_false_r].
Qed.
Lemma grafted_spec a b u q :
  grafted (ev_grafts a b) u q = joined b u && in_mesh b u q && (negb (in_mesh a u q) || memb q (ev_gone a b)).
Proof.
  unfold grafted, ev_grafts. rewrite existsb_concat, existsb_map.
  rewrite (existsb_ext _ (fun t => Nat.eqb t u && memb q (filter (fun p => negb (memb p (mesh_at a t)) || memb p (ev_gone a b)) (mesh_at b t)))).
  - rewrite existsb_pick, memb_keys, memb_filter, !in_mesh_at. unfold joined. now rewrite andb_assoc.
  - intros t. apply (existsb_topic TGraft). reflexivity.
Qed.

Lemma prunes_are_prunes a b : forallb is_prune (ev_prunes a b) = true.
Proof.
  unfold ev_prunes. apply forallb_forall. intros e He. apply in_concat in He as (l & Hl & He).
  apply in_map_iff in Hl as (t & <- & _). destruct (has_topic b t); [|destruct He].
  apply in_map_iff in He as (p & <- & _). reflexivity.
Qed.
Lemma grafts_are_grafts a b : forallb is_graft (ev_grafts a b) = true.
Proof.
  unfold ev_grafts. apply forallb_forall. intros e He. apply in_concat in He as (l & Hl & He).
  apply in_map_iff in Hl as (t & <- & _). apply in_map_iff in He as (p & <- & _). reflexivity.
Qed.

Theorem replay_diff a b v : vagree v a -> vagree (replay v (diff_events a b)) b.
Proof.
  intros (Ja & Ma & Pa). unfold diff_events. rewrite !replay_app.
  set (v1 := replay v (map TLeave (ev_left a b))).
  set (v2 := replay v1 (map TRemovePeer (ev_gone a b))).
  set (v3 := replay v2 (ev_prunes a b)).
  set (v4 := replay v3 (map TJoin (ev_joins a b))).
  set (v5 := replay v4 (map TAddPeer (ev_came a b))).
  destruct (phase_leaves (ev_left a b) v) as (J1 & M1 & P1). fold v1 in J1, M1, P1.
  destruct (phase_removes (ev_gone a b) v1) as (J2 & M2 & P2). fold v2 in J2, M2, P2.
  destruct (phase_prunes _ v2 (prunes_are_prunes a b)) as (J3 & M3 & P3). fold v3 in J3, M3, P3.
  destruct (phase_joins (ev_joins a b) v3) as (J4 & M4 & P4). fold v4 in J4, M4, P4.
  destruct (phase_adds (ev_came a b) v4) as (J5 & M5 & P5). fold v5 in J5, M5, P5.
  destruct (phase_grafts _ v5 (grafts_are_grafts a b)) as (J6 & M6 & P6).
  assert (HJ : forall u, joined v5 u = joined b u).
  { intros u. rewrite J5, J4, J3, J2, J1, Ja, memb_left, memb_joins. destruct (joined a u), (joined b u); reflexivity. }
  repeat split.
  - intros u. rewrite J6. apply HJ.
  - intros u q. rewrite M6, HJ, M5, M4, M3, M2, M1, Ma, grafted_spec, pruned_spec, memb_left.
    pose proof (in_mesh_joined a u q) as Ha. pose proof (in_mesh_joined b u q) as Hb.
    destruct (in_mesh a u q), (in_mesh b u q), (joined a u), (joined b u), (memb q (ev_gone a b));
      try reflexivity; try (specialize (Ha eq_refl); discriminate Ha); try (specialize (Hb eq_refl); discriminate Hb).
  - intros q. rewrite P6, P5, P4, P3, P2, P1, Pa, memb_gone, memb_came. destruct (has_peer a q), (has_peer b q); reflexivity.
Qed.

Lemma alt_ok_app l1 : forall j l2, alt_ok j (l1 ++ l2) = alt_ok j l1 && alt_ok (joined_after j l1) l2.
Proof.
  induction l1 as [|e l1 IH]; intros j l2; [reflexivity|].
  destruct e; cbn [app alt_ok joined_after]; rewrite ?IH, ?andb_assoc; reflexivity.
Qed.
Definition no_jl (e : tev) : bool := match e with TJoin _ | TLeave _ => false | _ => true end.
Lemma alt_ok_neutral l : (forall e, In e l -> no_jl e = true) -> forall j, alt_ok j l = true.
Proof.
  induction l as [|e l IH]; intros H j; [reflexivity|]. pose proof (H e (or_introl eq_refl)) as He.
  destruct e; try discriminate He; cbn [alt_ok]; apply IH; intros; apply H; now right.
Qed.
Lemma alt_ok_leaves L : forall j, nodup_b L = true -> (forall u, memb u L = true -> memb u j = true) -> alt_ok j (map TLeave L) = true.
Proof.
  induction L as [|t L IH]; intros j Hn Hs; [reflexivity|]. cbn [map alt_ok nodup_b] in *. apply andb_prop in Hn as [Ht Hn].
  rewrite (Hs t) by (now rewrite memb_cons, Nat.eqb_refl). apply IH; [exact Hn|].
  intros u Hu. rewrite memb_srem, Hs by (now rewrite memb_cons, Hu, orb_true_r).
  destruct (Nat.eqb_spec t u) as [->|]; [now rewrite Hu in Ht | reflexivity].
Qed.
Lemma alt_ok_joins J : forall j, nodup_b J = true -> (forall u, memb u J = true -> memb u j = false) -> alt_ok j (map TJoin J) = true.
Proof.
  induction J as [|t J IH]; intros j Hn Hs; [reflexivity|]. cbn [map alt_ok nodup_b] in *. apply andb_prop in Hn as [Ht Hn].
  rewrite (Hs t) by (now rewrite memb_cons, Nat.eqb_refl). apply IH; [exact Hn|].
  intros u Hu. rewrite memb_sadd, Hs by (now rewrite memb_cons, Hu, orb_true_r).
  destruct (Nat.eqb_spec u t) as [->|]; [now rewrite Hu in Ht | reflexivity].
Qed.

(* the joined set after a prefix of the trace is read off the replayed view ([replay_joined]): the second half is
   an instance of [replay_diff], and for the JOIN phase the phase lemmas say which topics are open when it starts *)
Theorem alt_ok_diff a b j : (forall u, memb u j = joined a u) ->
  alt_ok j (diff_events a b) = true /\ (forall u, memb u (joined_after j (diff_events a b)) = joined b u).
Proof.
  intros Hj. assert (H0 : forall u, joined a u = memb u j) by (intros u; symmetry; apply Hj).
  split; [|intros u; rewrite <- (replay_joined _ a j H0); apply (replay_diff a b a (vagree_refl a))].
  unfold diff_events. pose proof (replay_joined (map TLeave (ev_left a b)) a j H0) as H1.
  pose proof (replay_joined (map TRemovePeer (ev_gone a b)) _ _ H1) as H2.
  pose proof (replay_joined (ev_prunes a b) _ _ H2) as H3.
  pose proof (prunes_are_prunes a b) as Pp. pose proof (grafts_are_grafts a b) as Pg. rewrite forallb_forall in Pp, Pg.
  rewrite !alt_ok_app, !andb_true_iff. repeat split.
  - apply alt_ok_leaves; [apply nodup_dedupn|]. intros u. rewrite memb_left, Hj. now destruct (joined a u).
  - apply alt_ok_neutral. intros e He. apply in_map_iff in He as (p & <- & _). reflexivity.
  - apply alt_ok_neutral. intros e He. specialize (Pp e He). now destruct e.
  - apply alt_ok_joins; [apply nodup_dedupn|]. intros u. rewrite memb_joins, <- H3.
    rewrite (proj1 (phase_prunes _ _ (prunes_are_prunes a b))), (proj1 (phase_removes _ _)), (proj1 (phase_leaves _ _)).
    destruct (joined a u); [now rewrite andb_false_r | reflexivity].
  - apply alt_ok_neutral. intros e He. apply in_map_iff in He as (p & <- & _). reflexivity.
  - apply alt_ok_neutral. intros e He. specialize (Pg e He). now destruct e.
Qed.

Fixpoint run_trace (P : params) (s : rstate) (l : list (list (peer * Z) * rop)) : option (rstate * list tev) :=
  match l with
  | [] => Some (s, [])
  | (sc, o) :: l' =>
      match step P sc s o with
      | Some (s1, _, _) =>
          match run_trace P s1 l' with
          | Some (s2, tr) => Some (s2, diff_events (view_of s) (view_of s1) ++ tr)
          | None => None
          end
      | None => None
      end
  end.

Theorem trace_faithful_from P l : forall s v j s' tr,
  vagree v (view_of s) -> (forall u, memb u j = joined (view_of s) u) ->
  run_trace P s l = Some (s', tr) ->
  vagree (replay v tr) (view_of s') /\ alt_ok j tr = true.
Proof.
  induction l as [|[sc o] l IH]; intros s v j s' tr Hv Hj H; cbn [run_trace] in H.
  - injection H as <- <-. split; [exact Hv | reflexivity].
  - destruct (step P sc s o) as [[[s1 c] pen]|] eqn:Es; [|discriminate].
    destruct (run_trace P s1 l) as [[s2 tr2]|] eqn:Er; [|discriminate]. injection H as <- <-.
    destruct (alt_ok_diff (view_of s) (view_of s1) j Hj) as (A & B).
    destruct (IH s1 _ _ s2 tr2 (replay_diff _ _ _ Hv) B Er) as (V & A2).
    split; [rewrite replay_app; exact V | rewrite alt_ok_app, A, A2; reflexivity].
Qed.

Theorem trace_faithful P l s tr :
  run_trace P init l = Some (s, tr) -> vagree (replay tview0 tr) (view_of s) /\ alt_ok [] tr = true.
Proof. apply trace_faithful_from; [apply vagree_refl | reflexivity]. Qed.
