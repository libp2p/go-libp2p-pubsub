(* Model.Router.  C08: the invariant [Inv] of the backoff table and the ghost log along every history ([Inv_run],
   [no_early_graft]).  C07: one accepted per-topic heartbeat, phase by phase ([hb_topic_inv]).  At the end the facts of
   C06 and C09 that concern the router alone (fanout maintenance, negative scores). *)
From Coq Require Import List Bool ZArith Lia.
Import ListNotations.
From PS Require Import Model.Router Proofs.ListFacts Proofs.SetMapProofs.
Local Open Scope Z_scope.

Definition ukeys {V} (l : list (nat * V)) : Prop := NoDup (map fst l).

Lemma pick_ok_sub chosen cands n x : pick_ok chosen cands n = true -> In x chosen -> In x cands.
Proof. unfold pick_ok. rewrite !andb_true_iff. intros [[_ H] _]. now apply subset_In. Qed.
Lemma pick_ok_nodup chosen cands n : pick_ok chosen cands n = true -> NoDup chosen.
Proof. unfold pick_ok. rewrite !andb_true_iff. intros [[H _] _]. now apply nodup_b_NoDup. Qed.
Lemma pick_ok_length gr cands n : pick_ok gr cands n = true -> length gr = take_count n cands.
Proof. unfold pick_ok. rewrite !andb_true_iff, Nat.eqb_eq. tauto. Qed.
Lemma gs_peers_In_full s t f x : In x (gs_peers s t f) -> In x (aget_l t (tmap s)) /\ speaks_mesh s x = true /\ f x = true.
Proof. unfold gs_peers. rewrite filter_In, andb_true_iff. tauto. Qed.
Lemma picked_full s t f gr n p :
  pick_ok gr (gs_peers s t f) n = true -> In p gr -> In p (aget_l t (tmap s)) /\ speaks_mesh s p = true /\ f p = true.
Proof. intros Hp Hin. eapply gs_peers_In_full, pick_ok_sub; eauto. Qed.

(* C08.  The ghost log is in order when every GRAFT in it comes no earlier than the deadlines logged before it for the
   same topic and peer.  That holds along every history because each logged deadline of (t, p) stays covered: by the
   backoff entry of (t, p) while there is one, by the clock once the entry has been cleared - and a GRAFT is only
   logged for a peer without an entry.  Key uniqueness is what lets a lookup commute with clearBackoff's sweep. *)
Fixpoint log_ok (l : list gev) : Prop :=      (* newest first *)
  match l with
  | [] => True
  | GGraft t p tau :: l' => (forall d, In (GDeadline t p d) l' -> d <= tau) /\ log_ok l'
  | _ :: l' => log_ok l'
  end.

Record Inv (s : rstate) : Prop := {
  i_uk : ukeys2 (backoff s);
  i_dl : forall t p d, In (GDeadline t p d) (glog s) ->
           match backoff_of s t p with Some e => d <= e | None => d <= now s end;
  i_log : log_ok (glog s)
}.

Lemma Inv_init : Inv init.
Proof. split; cbn; auto; [|intros ? ? ? []]. split; [constructor | discriminate]. Qed.

Lemma Inv_frame s s' : Inv s -> backoff s' = backoff s -> glog s' = glog s -> now s' = now s -> Inv s'.
Proof. intros [A C D] Hb Hg Hn. split; unfold backoff_of; rewrite ?Hb, ?Hg, ?Hn; auto. Qed.

Lemma backoff_of_add s t p iv t' p' :
  backoff_of (add_backoff s t p iv) t' p'
  = if Nat.eqb t' t && Nat.eqb p' p
    then Some (match backoff_of s t p with Some old => Z.max old (now s + iv) | None => now s + iv end)
    else backoff_of s t' p'.
Proof.
  change (backoff_of (add_backoff s t p iv) t' p') with (aget2 t' p' (backoff (add_backoff s t p iv))).
  unfold add_backoff. cbn [backoff set_backoff]. rewrite aget2_aset2. unfold backoff_of. now destruct (aget t (backoff s)).
Qed.

Lemma Inv_add_backoff s t p iv : 0 <= iv -> Inv s -> Inv (add_backoff s t p iv).
Proof.
  intros Hiv [A C D]. split; [apply (ukeys2_aset2 t (aset p _)); auto using NoDup_keys_aset | | exact D].
  intros t' p' d Hin. rewrite backoff_of_add. destruct Hin as [[= -> -> <-]|Hin].
  - rewrite !Nat.eqb_refl. cbn. destruct (backoff_of s t' p'); lia.
  - specialize (C t' p' d Hin). cbn [now add_backoff set_backoff].
    destruct (Nat.eqb_spec t' t) as [->|]; [|exact C]. destruct (Nat.eqb_spec p' p) as [->|]; [|exact C].
    cbn. destruct (backoff_of s t p); lia.
Qed.

Lemma Inv_log_graft s t p : Inv s -> in_backoff s t p = false -> Inv (log_graft s t p).
Proof.
  intros [A C D] H. split; cbn; auto.
  - intros t' p' d [Hin|Hin]; [discriminate|]. apply (C t' p' d Hin).
  - split; [|exact D]. intros d Hin. specialize (C t p d Hin). unfold in_backoff in H.
    destruct (backoff_of s t p); [discriminate | exact C].
Qed.

Lemma Inv_set_time s tk nw : Inv s -> now s <= nw -> Inv (set_time s tk nw).
Proof.
  intros [A C D] H. split; auto. intros t p d Hin. specialize (C t p d Hin).
  change (backoff_of (set_time s tk nw) t p) with (backoff_of s t p). cbn [now set_time]. destruct (backoff_of s t p); lia.
Qed.

Lemma Inv_clear_backoff P s : 0 <= pSlack P -> Inv s -> Inv (clear_backoff P s).
Proof.
  intros Hs I. pose proof I as [A C D]. unfold clear_backoff. destruct (Nat.eqb (Nat.modulo (ticks s) 15) 0); [|exact I].
  set (h := filter (fun pe : peer * Z => negb (snd pe + pSlack P <? now s))).
  split; [apply (ukeys2_sweep h); [apply NoDup_keys_filter | exact A] | | exact D].
  intros t p d Hin. specialize (C t p d Hin).
  change (match aget2 t p (sweep h (backoff s)) with Some e => d <= e | None => d <= now s end).
  rewrite aget2_sweep by apply A. change (backoff_of s t p) with (aget2 t p (backoff s)) in C. unfold aget2 in C.
  destruct (aget (V:=list (nat * Z)) t (backoff s)) as [m|] eqn:E; [|exact C].   (* at list (peer * Z) it would not be found *)
  unfold h. rewrite aget_filter by (eapply A; eauto). destruct (aget p m) as [e|]; [|exact C].
  cbn. destruct (Z.ltb_spec (e + pSlack P) (now s)); cbn; lia.
Qed.

Lemma Inv_fold_add_backoff t iv l s : 0 <= iv -> Inv s -> Inv (fold_left (fun st p => add_backoff st t p iv) l s).
Proof. intros Hiv. apply fold_left_inv. intros. now apply Inv_add_backoff. Qed.

Lemma Inv_fold_log_graft t l s :
  Inv s -> (forall p, In p l -> in_backoff s t p = false) -> Inv (fold_left (fun st p => log_graft st t p) l s).
Proof.
  intros I H. apply (fold_left_inv (fun st => Inv st /\ backoff st = backoff s) _ l); [|auto].
  intros a p Hp [Ia Eb]. split; [|exact Eb]. apply Inv_log_graft; [exact Ia|].
  rewrite <- (H p Hp). unfold in_backoff, backoff_of. now rewrite Eb.
Qed.

Lemma fold_add_backoff_now t iv l : forall s, now (fold_left (fun st p => add_backoff st t p iv) l s) = now s.
Proof. apply fold_left_same. reflexivity. Qed.

Record nonneg (P : params) : Prop := {
  nn_prune : 0 <= pPruneBackoff P; nn_unsub : 0 <= pUnsubBackoff P; nn_slack : 0 <= pSlack P
}.
Lemma valid_nonneg P : valid_params P = true -> nonneg P.
Proof.
  unfold valid_params. intros H. apply andb_prop in H as [H Hs]. apply andb_prop in H as [H Hu]. apply andb_prop in H as [_ Hp].
  split; now apply Z.leb_le.
Qed.

(* Join, when it has something to do: the new mesh [g] is logged as grafted, and nobody in it is backed off or negative;
   [f], [lp] are what Join leaves of the fanout maps *)
Lemma join_inv P sc s t chosen s' c :
  join P sc s t chosen = Some (s', c) -> aget t (mesh s) = None ->
  exists g f lp,
    (s', c) = (fold_left (fun st p => log_graft st t p) g (set_fanout (set_mesh s (aset t g (mesh s))) f lp),
               map (fun p => CGraft p t) g)
    /\ forall p, In p g -> in_backoff s t p = false /\ 0 <= score_of sc p.
Proof.
  unfold join. intros H E. rewrite E in H. cbv zeta in H.
  set (el := fun p => negb (memb p (direct s)) && negb (in_backoff s t p) && (0 <=? score_of sc p)) in *.
  assert (Hel : forall p, el p = true -> in_backoff s t p = false /\ 0 <= score_of sc p).
  { intros p. unfold el. rewrite !andb_true_iff, !negb_true_iff, Z.leb_le. tauto. }
  destruct (aget t (fanout s)) as [fan|].
  - match type of H with (if ?c then _ else _) = _ => destruct c eqn:Ep; [|discriminate] end. injection H as <- <-.
    eexists _, _, _. split; [reflexivity|]. intros p Hp. apply in_app_or in Hp as [Hp|Hp].
    + apply filter_In in Hp as [_ Hp]. rewrite negb_true_iff, orb_false_iff, Z.ltb_ge in Hp. tauto.
    + destruct (Nat.ltb _ (pD P)); [|destruct Hp]. apply (picked_full _ _ _ _ _ _ Ep) in Hp as (_ & _ & [_ Hp]%andb_prop). now apply Hel.
  - destruct (pick_ok chosen _ (pD P)) eqn:Ep; [|discriminate]. injection H as <- <-.
    exists chosen, (fanout s), (lastpub s). split; [reflexivity|]. intros p Hp. now apply Hel, (picked_full _ _ _ _ _ _ Ep).
Qed.

Lemma Inv_join P sc s t chosen s' c : Inv s -> join P sc s t chosen = Some (s', c) -> Inv s'.
Proof.
  intros I H. destruct (aget t (mesh s)) eqn:E.
  - unfold join in H. rewrite E in H. destruct chosen; [|discriminate]. now injection H as <- _.
  - destruct (join_inv _ _ _ _ _ _ _ H E) as (g & f & lp & [= -> _] & Hg).
    apply Inv_fold_log_graft; [now apply (Inv_frame s)|]. intros p Hp. now apply Hg.
Qed.

Lemma Inv_leave P s t : 0 <= pUnsubBackoff P -> Inv s -> Inv (fst (leave P s t)).
Proof.
  intros Hu I. unfold leave. destruct (aget t (mesh s)) as [g|]; cbn [fst]; [|exact I].
  apply Inv_fold_add_backoff; [exact Hu | now apply (Inv_frame s)].
Qed.

Lemma handle_graft1_state P sc s p t :
  let s' := fst (fst (handle_graft1 P sc s p t)) in
  s' = s \/ s' = add_backoff s t p (pPruneBackoff P) \/ exists g, s' = set_mesh s (aset t (g ++ [p]) (mesh s)).
Proof.
  unfold handle_graft1. destruct (aget t (mesh s)) as [g|]; [|left; reflexivity]. destruct (memb p g); [left; reflexivity|].
  destruct (memb p (direct s)); [left; reflexivity|].
  destruct (backoff_of s t p) as [e|]; [destruct (now s <? e); [right; left; reflexivity|]|];
    (destruct (score_of sc p <? 0); [right; left; reflexivity|]);
    (destruct (Nat.leb _ _ && _); [right; left; reflexivity | right; right; exists g; reflexivity]).
Qed.

Lemma Inv_handle_graft1 P sc s p t : 0 <= pPruneBackoff P -> Inv s -> Inv (fst (fst (handle_graft1 P sc s p t))).
Proof.
  intros Hp I. destruct (handle_graft1_state P sc s p t) as [->|[->|[g ->]]];
    [exact I | now apply Inv_add_backoff | now apply (Inv_frame s)].
Qed.

Lemma Inv_handle_graft P sc p ts : 0 <= pPruneBackoff P -> forall s, Inv s -> Inv (fst (fst (handle_graft P sc s p ts))).
Proof.
  intros Hn. induction ts as [|t ts IH]; intros s I; cbn [handle_graft fst]; [exact I|].
  pose proof (Inv_handle_graft1 P sc s p t Hn I) as I1. destruct (handle_graft1 P sc s p t) as [[s1 pr] pen].
  specialize (IH s1 I1). now destruct (handle_graft P sc s1 p ts) as [[s2 cs] pen2].
Qed.

Lemma Inv_handle_prune1 P s p t bo : 0 <= pPruneBackoff P -> Inv s -> Inv (handle_prune1 P s p t bo).
Proof.
  intros Hp I. unfold handle_prune1. destruct (aget t (mesh s)) as [g|]; [|exact I].
  apply Inv_add_backoff; [|now apply (Inv_frame s)]. destruct bo as [secs|]; [|exact Hp]. destruct (Z.ltb_spec 0 secs); [lia | exact Hp].
Qed.

Lemma Inv_do_prunes P s t pr : 0 <= pPruneBackoff P -> Inv s -> Inv (do_prunes P s t pr).
Proof. intros Hp I. unfold do_prunes. apply Inv_fold_add_backoff; [exact Hp | now apply (Inv_frame s)]. Qed.

(* a graft phase: [gr] joins the mesh of [t] and is logged; when active it is an admissible pick among the candidates.
   An idle phase leaves the state as it is ([grafts_none]), which [grafts_some []] would not: it writes the mesh entry. *)
Inductive grafts (s : rstate) (t : topic) : list peer -> rstate -> Prop :=
| grafts_none : grafts s t [] s
| grafts_some gr : grafts s t gr (fold_left (fun st p => log_graft st t p) gr (set_mesh s (aset t (aget_l t (mesh s) ++ gr) (mesh s)))).
Set Implicit Arguments.
Record graft_phase (s : rstate) (t : topic) (active : bool) (f : peer -> bool) (n : nat) (gr : list peer) (s' : rstate) : Prop := {
  gp_grafts : grafts s t gr s';
  gp_pick : active = true -> pick_ok gr (gs_peers s t f) n = true;
  gp_idle : active = false -> gr = []
}.
Unset Implicit Arguments.

Lemma phase_graft_inv s t active f n evs s' gr evs' :
  phase_graft s t active (gs_peers s t f) n evs = Some (s', gr, evs') -> graft_phase s t active f n gr s'.
Proof.
  unfold phase_graft. destruct active; [|intros [= <- <- _]; split; [constructor | discriminate | reflexivity]].
  destruct (take_grafts _ evs) as [[g e]|]; [|discriminate]. destruct (pick_ok g _ n) eqn:Ep; [|discriminate].
  intros [= <- <- _]. split; [constructor | intros _; exact Ep | discriminate].
Qed.

Lemma mesh_fold_log_graft t l : forall s, mesh (fold_left (fun st p => log_graft st t p) l s) = mesh s.
Proof. apply fold_left_same. reflexivity. Qed.
Lemma mesh_fold_add_backoff t iv l : forall s, mesh (fold_left (fun st p => add_backoff st t p iv) l s) = mesh s.
Proof. apply fold_left_same. reflexivity. Qed.

Lemma grafts_mesh s t gr s' : grafts s t gr s' -> aget_l t (mesh s') = aget_l t (mesh s) ++ gr.
Proof.
  intros [|]; [now rewrite app_nil_r|]. rewrite mesh_fold_log_graft. cbn [mesh set_mesh]. now rewrite aget_l_aset, Nat.eqb_refl.
Qed.
Lemma graft_phase_picked {s t a f n gr s'} p :
  graft_phase s t a f n gr s' -> In p gr -> In p (aget_l t (tmap s)) /\ speaks_mesh s p = true /\ f p = true.
Proof.
  intros G Hp. destruct a; [|now rewrite (gp_idle G eq_refl) in Hp].
  exact (picked_full _ _ _ _ _ _ (gp_pick G eq_refl) Hp).
Qed.
Lemma graft_phase_mesh {Q : peer -> Prop} {s t a f n gr s'} :
  graft_phase s t a f n gr s' -> (forall p, f p = true -> Q p) ->
  (forall p, In p (aget_l t (mesh s)) -> Q p) -> forall p, In p (aget_l t (mesh s')) -> Q p.
Proof.
  intros G Hf Hm p. rewrite (grafts_mesh _ _ _ _ (gp_grafts G)), in_app_iff. intros [H|H]; [auto|]. eapply Hf, (graft_phase_picked p G H).
Qed.
Lemma Inv_graft_phase {s t a f n gr s'} :
  Inv s -> graft_phase s t a f n gr s' -> (forall p, f p = true -> in_backoff s t p = false) -> Inv s'.
Proof.
  intros I G Hf. pose proof (fun p => graft_phase_picked p G) as Hp. destruct (gp_grafts G); [exact I|].
  apply Inv_fold_log_graft; [now apply (Inv_frame s)|]. intros p Hin. apply Hf, (Hp p Hin).
Qed.

Lemma do_prunes_mesh P s t pr :
  aget_l t (mesh (do_prunes P s t pr)) = filter (fun p => negb (memb p pr)) (aget_l t (mesh s)).
Proof. unfold do_prunes. rewrite mesh_fold_add_backoff. cbn [mesh set_mesh]. now rewrite aget_l_aset, Nat.eqb_refl. Qed.

(* an accepted per-topic heartbeat is: prune the negative, graft if under-subscribed, cut if over-subscribed,
   graft for the outbound quota, graft opportunistically; [s1 .. s4] are the states between the phases *)
Set Implicit Arguments.
Record hb_phases (P : params) (sc : list (peer * Z)) (s : rstate) (t : topic) (g0 gr2 pr3 gr4 gr5 : list peer)
                 (s1 s2 s3 s4 s' : rstate) (gr pr npx : list peer) : Prop := {
  hp_joined : aget t (mesh s) = Some g0;
  hp_s1 : s1 = do_prunes P s t (filter (fun p => score_of sc p <? 0) g0);
  hp_mesh1 : aget_l t (mesh s1) = filter (A:=peer) (fun p => negb (score_of sc p <? 0)) g0;
  hp_under : graft_phase s1 t (Nat.ltb (length (aget_l t (mesh s1))) (pDlo P))
               (fun p => elig s1 t p && (0 <=? score_of sc p)) (pD P - length (aget_l t (mesh s1))) gr2 s2;
  hp_cut : Nat.leb (pDhi P) (length (aget_l t (mesh s2))) = true ->
           cut_ok P sc s2 (aget_l t (mesh s2)) (filter (fun p => negb (memb p pr3)) (aget_l t (mesh s2))) = true;
  hp_nocut : Nat.leb (pDhi P) (length (aget_l t (mesh s2))) = false -> pr3 = [];
  hp_s3 : s3 = do_prunes P s2 t pr3;
  hp_quota : graft_phase s3 t (Nat.leb (pDlo P) (length (aget_l t (mesh s3))) && Nat.ltb (count_out s3 (aget_l t (mesh s3))) (pDout P))
               (fun p => elig s3 t p && is_outbound s3 p && (0 <=? score_of sc p))
               (pDout P - count_out s3 (aget_l t (mesh s3))) gr4 s4;
  hp_opp : graft_phase s4 t (Nat.eqb (Nat.modulo (ticks s) (pOGTicks P)) 0 && Nat.ltb 1 (length (aget_l t (mesh s4)))
                              && (median_score sc (aget_l t (mesh s4)) <? pOGThreshold P))
             (fun p => elig s4 t p && (median_score sc (aget_l t (mesh s4)) <? score_of sc p)) (pOGPeers P) gr5 s';
  hp_gr : gr = gr2 ++ gr4 ++ gr5;
  hp_npx : npx = filter (fun p => score_of sc p <? 0) g0;
  hp_pr : pr = npx ++ pr3
}.
Unset Implicit Arguments.

Lemma hb_topic_inv {P sc s t evs s' gr pr npx} :
  hb_topic P sc s t evs = Some (s', gr, pr, npx) ->
  exists g0 gr2 pr3 gr4 gr5 s1 s2 s3 s4, hb_phases P sc s t g0 gr2 pr3 gr4 gr5 s1 s2 s3 s4 s' gr pr npx.
Proof.
  unfold hb_topic. destruct (aget t (mesh s)) as [g0|] eqn:Eg; [|discriminate].
  destruct (take_prunes _ evs) as [[pr1 evs1]|]; [|discriminate]. destruct (negb (seteq pr1 _)); [discriminate|].
  destruct (phase_graft _ t _ _ _ evs1) as [[[s2 gr2] evs2]|] eqn:E2; [|discriminate]. apply phase_graft_inv in E2.
  destruct (take_prunes _ evs2) as [[pr3 evs3]|] eqn:E3; [|discriminate].
  match goal with |- (if negb ?c then _ else _) = _ -> _ => destruct c eqn:Ec; [|discriminate] end. cbn [negb].
  destruct (phase_graft _ t _ _ _ evs3) as [[[s4 gr4] evs4]|] eqn:E4; [|discriminate]. apply phase_graft_inv in E4.
  destruct (phase_graft _ t _ _ _ evs4) as [[[s5 gr5] [|]]|] eqn:E5; [|discriminate..]. apply phase_graft_inv in E5.
  intros [= <- <- <- <-]. exists g0, gr2, pr3, gr4, gr5. eexists _, s2, _, s4. split; try reflexivity; try assumption.
  - rewrite do_prunes_mesh, (aget_l_of _ _ _ Eg). apply filter_out_filter.
  - intros Ho. rewrite Ho, !andb_true_iff in Ec. tauto.
  - intros Ho. rewrite Ho in E3. now injection E3 as <- _.
Qed.

Lemma elig_spec s t p : elig s t p = true ->
  memb p (aget_l t (mesh s)) = false /\ in_backoff s t p = false /\ memb p (direct s) = false.
Proof. unfold elig. rewrite !andb_true_iff, !negb_true_iff. tauto. Qed.

Lemma Inv_hb_topic P sc s t evs s' gr pr npx :
  0 <= pPruneBackoff P -> Inv s -> hb_topic P sc s t evs = Some (s', gr, pr, npx) -> Inv s'.
Proof.
  intros Hp I H. destruct (hb_topic_inv H) as (g0 & gr2 & pr3 & gr4 & gr5 & s1 & s2 & s3 & s4 & X).
  assert (E : forall st (h : peer -> bool) p, elig st t p && h p = true -> in_backoff st t p = false)
    by (intros st h p Hq; apply andb_prop in Hq as [Hq _]; now apply elig_spec in Hq).
  assert (I1 : Inv s1) by (rewrite (hp_s1 X); now apply Inv_do_prunes).
  pose proof (Inv_graft_phase I1 (hp_under X) (E s1 _)) as I2.
  assert (I3 : Inv s3) by (rewrite (hp_s3 X); now apply Inv_do_prunes).
  assert (I4 : Inv s4).
  { apply (Inv_graft_phase I3 (hp_quota X)). intros p Hq. apply andb_prop in Hq as [Hq _]. exact (E s3 _ p Hq). }
  exact (Inv_graft_phase I4 (hp_opp X) (E s4 _)).
Qed.

Lemma Inv_hb_topics P sc ts obs :
  0 <= pPruneBackoff P -> forall s s' r, Inv s -> hb_topics P sc s ts obs = Some (s', r) -> Inv s'.
Proof.
  intros Hp. induction ts as [|t ts IH]; intros s s' r I H; cbn [hb_topics] in H; [now injection H as <- _|].
  destruct (hb_topic P sc s t _) as [[[[s1 gr] pr] npx]|] eqn:E; [|discriminate].
  destruct (hb_topics P sc s1 ts obs) as [[s2 r2]|] eqn:E2; [|discriminate]. injection H as <- _.
  eapply IH; [|exact E2]. eapply Inv_hb_topic; eauto.
Qed.

Lemma Inv_hb_fanouts P sc ts obs : forall s s', Inv s -> hb_fanouts P sc s ts obs = Some s' -> Inv s'.
Proof.
  induction ts as [|t ts IH]; intros s s' I H; cbn [hb_fanouts] in H; [now injection H as <-|].
  destruct (hb_fanout P sc s t _) as [s1|] eqn:E; [|discriminate]. eapply IH; [|exact H].
  unfold hb_fanout in E. destruct (aget t (fanout s)); [|discriminate].
  match type of E with (if ?c then _ else _) = _ => destruct c; [|discriminate] end. injection E as <-. now apply (Inv_frame s).
Qed.

Lemma Inv_heartbeat P sc s obs fobs s' c : nonneg P -> Inv s -> heartbeat P sc s obs fobs = Some (s', c) -> Inv s'.
Proof.
  intros Hn I H. unfold heartbeat in H.
  match type of H with (if ?c then _ else _) = _ => destruct c; [discriminate|] end.
  destruct (hb_topics P sc _ _ obs) as [[s1 res]|] eqn:E1; [|discriminate].
  destruct (hb_fanouts P sc (expire_fanout P s1) _ fobs) as [s3|] eqn:E3; [|discriminate]. injection H as <- _.
  eapply Inv_hb_fanouts; [|exact E3]. apply (Inv_frame s1); try reflexivity.
  eapply Inv_hb_topics; [exact (nn_prune _ Hn) | | exact E1]. apply Inv_clear_backoff; [exact (nn_slack _ Hn)|].
  apply Inv_set_time; [exact I | lia].
Qed.

Lemma Inv_step P sc s o s' c pen : nonneg P -> Inv s -> step P sc s o = Some (s', c, pen) -> Inv s'.
Proof.
  intros Hn I H. destruct o; cbn [step] in H; try (injection H as <- _ _; now apply (Inv_frame s)).
  - destruct (join P sc s t chosen) as [[s1 c1]|] eqn:E; [|discriminate]. injection H as <- _ _. eapply Inv_join; eauto.
  - pose proof (Inv_leave P s t (nn_unsub _ Hn) I) as L. destruct (leave P s t) as [s1 c1]. now injection H as <- _ _.
  - injection H as H. pose proof (Inv_handle_graft P sc p ts (nn_prune _ Hn) s I) as G. now rewrite H in G.
  - injection H as <- _ _. apply fold_left_inv; [|exact I]. intros. apply Inv_handle_prune1; [exact (nn_prune _ Hn) | assumption].
  - destruct (heartbeat P sc s obs fobs) as [[s1 c1]|] eqn:E; [|discriminate]. injection H as <- _ _. eapply Inv_heartbeat; eauto.
  - destruct (Z.ltb_spec d 0); [discriminate|]. injection H as <- _ _. apply Inv_set_time; [exact I | lia].
  - destruct (aget t (mesh s)); [discriminate|]. destruct (fanout_pub P sc s t chosen) as [[s1 l1]|] eqn:E; [|discriminate].
    injection H as <- _ _. unfold fanout_pub in E. destruct (aget_l t (fanout s)).
    + destruct (pick_ok chosen _ (pD P)); [|discriminate]. injection E as <- _. now apply (Inv_frame s).
    + destruct chosen; [|discriminate]. injection E as <- _. now apply (Inv_frame s).
Qed.

Lemma Inv_run P l : nonneg P -> forall s s' c, Inv s -> run P s l = Some (s', c) -> Inv s'.
Proof.
  intros Hn. induction l as [|[sc o] l IH]; intros s s' c I H; cbn [run] in H; [now injection H as <- _|].
  destruct (step P sc s o) as [[[s1 c1] pen]|] eqn:E; [|discriminate].
  destruct (run P s1 l) as [[s2 c2]|] eqn:E2; [|discriminate]. injection H as <- _.
  eapply IH; [|exact E2]. eapply Inv_step; eauto.
Qed.

Lemma log_ok_split l1 : forall l2 t p tau d,
  log_ok (l1 ++ GGraft t p tau :: l2) -> In (GDeadline t p d) l2 -> d <= tau.
Proof.
  induction l1 as [|e l1 IH]; intros l2 t p tau d H Hin; cbn [app log_ok] in H; [now apply H|].
  destruct e; [|destruct H as [_ H]]; eapply IH; eauto.
Qed.

(* every GRAFT the node decides to send for (t,p) comes no earlier than every backoff deadline
   established before it for (t,p): own prunes, refused GRAFTs, received PRUNEs (with the period they
   name, else the configured one) and Leave (unsubscribe backoff) *)
Theorem no_early_graft P l s c l1 l2 t p tau d :
  valid_params P = true -> run P init l = Some (s, c) ->
  glog s = l1 ++ GGraft t p tau :: l2 -> In (GDeadline t p d) l2 -> d <= tau.
Proof.
  intros Hv R Hg. apply log_ok_split with l1. rewrite <- Hg.
  exact (i_log _ (Inv_run P l (valid_nonneg P Hv) _ _ _ Inv_init R)).
Qed.

(* a GRAFT received from a peer still under backoff is refused with a PRUNE, penalised (doubly within
   the flood threshold) and extends the backoff *)
Theorem graft_in_backoff_refused P sc s p t g e :
  aget t (mesh s) = Some g -> memb p g = false -> memb p (direct s) = false ->
  backoff_of s t p = Some e -> now s < e ->
  handle_graft1 P sc s p t
  = (add_backoff s t p (pPruneBackoff P), true,
     if now s <? e + (pGraftFlood P - pPruneBackoff P) then 2%nat else 1%nat).
Proof.
  intros Hm Hg Hd Hb Hlt. unfold handle_graft1. rewrite Hm, Hg, Hd, Hb.
  destruct (Z.ltb_spec (now s) e); [reflexivity|lia].
Qed.

Theorem refused_graft_not_in_mesh P sc s p t g e :
  aget t (mesh s) = Some g -> memb p g = false -> memb p (direct s) = false ->
  backoff_of s t p = Some e -> now s < e ->
  mesh (fst (fst (handle_graft1 P sc s p t))) = mesh s
  /\ exists e', backoff_of (fst (fst (handle_graft1 P sc s p t))) t p = Some e' /\ e <= e' /\ now s + pPruneBackoff P <= e'.
Proof.
  intros Hm Hg Hd Hb Hlt. rewrite (graft_in_backoff_refused P sc s p t g e Hm Hg Hd Hb Hlt). cbn [fst].
  split; [reflexivity|]. rewrite backoff_of_add, !Nat.eqb_refl, Hb. cbn [andb]. eexists; split; [reflexivity|lia].
Qed.

(* every PRUNE to a peer speaking v1.1 or later states the backoff period *)
Theorem prune_states_backoff P s p t unsub :
  speaks_px s p = true ->
  mk_prune P s p t unsub = CPrune p t (Some ((if unsub then pUnsubBackoff P else pPruneBackoff P) / 1000000000)).
Proof. intros H. unfold mk_prune. now rewrite H. Qed.

Lemma insert_desc_In z l x : In x (insert_desc z l) <-> x = z \/ In x l.
Proof.
  induction l as [|y l IH]; cbn; [intuition congruence|]. destruct (y <? z); cbn; [intuition congruence|]. rewrite IH. intuition congruence.
Qed.
Lemma insert_desc_length z l : length (insert_desc z l) = S (length l).
Proof. induction l as [|y l IH]; cbn; [reflexivity|]. destruct (y <? z); cbn; [reflexivity|now rewrite IH]. Qed.
Lemma sorted_desc_In l x : In x (sorted_desc l) <-> In x l.
Proof. unfold sorted_desc. induction l as [|y l IH]; cbn [fold_right In]; [tauto|]. rewrite insert_desc_In, IH. intuition congruence. Qed.
Lemma sorted_desc_length l : length (sorted_desc l) = length l.
Proof. unfold sorted_desc. induction l as [|y l IH]; cbn [fold_right length]; [reflexivity|]. now rewrite insert_desc_length, IH. Qed.

(* holds because the median of a non-empty list is one of its elements *)
Lemma median_nonneg sc g : (forall p, In p g -> 0 <= score_of sc p) -> 0 <= median_score sc g.
Proof.
  intros H. unfold median_score. destruct g as [|p0 g']; [cbn; lia|].
  set (l := rev (sorted_desc (map (score_of sc) (p0 :: g')))).
  assert (Hi : (length (p0 :: g') / 2 < length l)%nat).
  { unfold l. rewrite rev_length, sorted_desc_length, map_length. apply Nat.div_lt; cbn; lia. }
  pose proof (nth_In l 0 Hi) as Hin. unfold l in Hin at 2. apply in_rev in Hin. rewrite sorted_desc_In in Hin.
  apply in_map_iff in Hin as (q & <- & Hq). now apply H.
Qed.

(* C07: what a heartbeat guarantees for one topic.  [hb_topic_inv] is the full statement.  Of the five below,
   hb_undersubscribed_grows, hb_oversubscribed_cut, hb_never_adds_ineligible and hb_emits_graft_prune quantify their
   intermediate states and lists existentially without tying them to the heartbeat; the record [hb_phases] does. *)

(* after the heartbeat the mesh of the topic contains no peer with a negative score *)
Theorem hb_no_negative P sc s t evs s' gr pr npx :
  hb_topic P sc s t evs = Some (s', gr, pr, npx) ->
  forall p, In p (aget_l t (mesh s')) -> 0 <= score_of sc p.
Proof.
  intros H. destruct (hb_topic_inv H) as (g0 & gr2 & pr3 & gr4 & gr5 & s1 & s2 & s3 & s4 & X).
  assert (F : forall (h : peer -> bool) p, h p && (0 <=? score_of sc p) = true -> 0 <= score_of sc p)
    by (intros h p Hp; apply andb_prop in Hp as [_ Hp]; now apply Z.leb_le).
  assert (H1 : forall p, In p (aget_l t (mesh s1)) -> 0 <= score_of sc p).
  { intros p Hp. rewrite (hp_mesh1 X) in Hp. apply filter_In in Hp as [_ Hp]. now apply negb_true_iff, Z.ltb_ge in Hp. }
  pose proof (graft_phase_mesh (hp_under X) (F _) H1) as H2.
  assert (H3 : forall p, In p (aget_l t (mesh s3)) -> 0 <= score_of sc p).
  { intros p Hp. rewrite (hp_s3 X), do_prunes_mesh in Hp. apply filter_In in Hp as [Hp _]. exact (H2 p Hp). }
  pose proof (graft_phase_mesh (hp_quota X) (F _) H3) as H4.
  apply (graft_phase_mesh (hp_opp X)); [|exact H4].
  intros p Hp. apply andb_prop in Hp as [_ Hp]. apply Z.ltb_lt in Hp. pose proof (median_nonneg sc _ H4). lia.
Qed.

(* under-subscribed: the mesh grows to D, or to its previous members plus all eligible candidates *)
Theorem hb_undersubscribed_grows P sc s t evs s' gr pr npx :
  (pDlo P <= pD P)%nat ->
  hb_topic P sc s t evs = Some (s', gr, pr, npx) ->
  exists g0 gr2 s1,
    aget t (mesh s) = Some g0 /\
    let g1 := filter (fun p => negb (score_of sc p <? 0)) g0 in
    let cands := gs_peers s1 t (fun p => elig s1 t p && (0 <=? score_of sc p)) in
    aget_l t (mesh s1) = g1 /\
    ((length g1 < pDlo P)%nat -> length (g1 ++ gr2) = Nat.min (pD P) (length g1 + length cands)) /\
    ((pDlo P <= length g1)%nat -> gr2 = []).
Proof.
  intros HD H. destruct (hb_topic_inv H) as (g0 & gr2 & pr3 & gr4 & gr5 & s1 & s2 & s3 & s4 & X).
  pose proof (gp_pick (hp_under X)) as A2. pose proof (gp_idle (hp_under X)) as N2. rewrite (hp_mesh1 X) in A2, N2.
  exists g0, gr2, s1. cbv zeta. split; [exact (hp_joined X)|]. split; [exact (hp_mesh1 X)|]. split; intros Hl.
  - rewrite app_length, (pick_ok_length _ _ _ (A2 (proj2 (Nat.ltb_lt _ _) Hl))). unfold take_count.
    unfold peer in *. destruct (pD P - _)%nat eqn:En; lia.   (* the model takes [length] at list nat, the statement at list peer *)
  - apply N2, Nat.ltb_ge, Hl.
Qed.

(* over-subscribed: cut back to exactly D, keeping what cut_ok demands (best scores, outbound quota) *)
Theorem hb_oversubscribed_cut P sc s t evs s' gr pr npx :
  hb_topic P sc s t evs = Some (s', gr, pr, npx) ->
  exists g2 pr3 s2 s3,
    aget_l t (mesh s2) = g2 /\
    aget_l t (mesh s3) = filter (fun p => negb (memb p pr3)) g2 /\
    ((pDhi P <= length g2)%nat ->
       length (aget_l t (mesh s3)) = pD P /\ cut_ok P sc s2 g2 (aget_l t (mesh s3)) = true) /\
    ((length g2 < pDhi P)%nat -> pr3 = []).
Proof.
  intros H. destruct (hb_topic_inv H) as (g0 & gr2 & pr3 & gr4 & gr5 & s1 & s2 & s3 & s4 & X).
  exists (aget_l t (mesh s2)), pr3, s2, s3. rewrite (hp_s3 X), do_prunes_mesh.
  split; [reflexivity|]. split; [reflexivity|]. split; intros Hl.
  - pose proof (hp_cut X (proj2 (Nat.leb_le _ _) Hl)) as C. split; [|exact C].
    unfold cut_ok in C. rewrite !andb_true_iff, Nat.eqb_eq in C. tauto.
  - apply (hp_nocut X), Nat.leb_gt, Hl.
Qed.

(* no direct peer, backed-off peer or current member is ever added by the heartbeat, only subscribed
   peers that speak gossipsub (negative scores are excluded by hb_no_negative) *)
Theorem hb_never_adds_ineligible P sc s t evs s' gr pr npx :
  hb_topic P sc s t evs = Some (s', gr, pr, npx) ->
  forall p, In p gr ->
    exists st, elig st t p = true /\ In p (aget_l t (tmap st)) /\ speaks_mesh st p = true.
Proof.
  intros H p. destruct (hb_topic_inv H) as (g0 & gr2 & pr3 & gr4 & gr5 & s1 & s2 & s3 & s4 & X).
  intros Hp. rewrite (hp_gr X) in Hp. apply in_app_or in Hp as [Hp|Hp]; [|apply in_app_or in Hp as [Hp|Hp]];
    [exists s1; destruct (graft_phase_picked p (hp_under X) Hp) as (T & S & F)
    | exists s3; destruct (graft_phase_picked p (hp_quota X) Hp) as (T & S & F)
    | exists s4; destruct (graft_phase_picked p (hp_opp X) Hp) as (T & S & F)];
    rewrite !andb_true_iff in F; tauto.
Qed.

(* every peer added on our own initiative is sent GRAFT, every peer removed is sent PRUNE *)
Theorem hb_emits_graft_prune P sc s obs fobs s' c :
  heartbeat P sc s obs fobs = Some (s', c) ->
  exists s0 s1 res, hb_topics P sc s0 (map fst (mesh s0)) obs = Some (s1, res) /\
    forall t gr pr, In (t, (gr, pr)) res ->
      (forall p, In p gr -> In (CGraft p t) c) /\ (forall p, In p pr -> In (mk_prune P s p t false) c).
Proof.
  unfold heartbeat. intros H.
  set (s0 := clear_backoff P (set_time s (S (ticks s)) (now s))) in *.
  match type of H with (if ?c then _ else _) = _ => destruct c; [discriminate|] end.
  destruct (hb_topics P sc s0 _ obs) as [[s1 res]|] eqn:E1; [|discriminate].
  destruct (hb_fanouts P sc (expire_fanout P s1) _ fobs) as [s3|]; [|discriminate].
  injection H as _ <-. exists s0, s1, res. split; [exact E1|].
  intros t gr pr Hin. split; intros p Hp; apply in_or_app; [left|right]; apply in_concat.
  - exists (map (fun q => CGraft q t) gr). split; [|apply (in_map (fun q => CGraft q t)); exact Hp].
    apply in_map_iff. exists (t, (gr, pr)). auto.
  - exists (map (fun q => mk_prune P s q t false) pr). split; [|apply (in_map (fun q => mk_prune P s q t false)); exact Hp].
    apply in_map_iff. exists (t, (gr, pr)). auto.
Qed.

(* fanout maintenance at the heartbeat: members that are still in the topic and at or above the
   publish threshold are kept, everybody in the result meets the threshold *)
Theorem hb_fanout_spec P sc s t added s' :
  hb_fanout P sc s t added = Some s' ->
  (forall p, In p (aget_l t (fanout s)) -> In p (aget_l t (tmap s)) -> pPublishThr P <= score_of sc p -> In p (aget_l t (fanout s')))
  /\ (forall p, In p (aget_l t (fanout s')) -> pPublishThr P <= score_of sc p /\ In p (aget_l t (tmap s))).
Proof.
  unfold hb_fanout. intros H. destruct (aget t (fanout s)) as [f0|] eqn:Ef; [|discriminate]. rewrite (aget_l_of _ _ _ Ef).
  match type of H with (if ?c then _ else _) = _ => destruct c eqn:Hc end; [|discriminate].
  injection H as <-. cbn [fanout set_fanout tmap]. rewrite aget_l_aset, Nat.eqb_refl.
  split; intros p Hp.
  - intros Ht Hs. apply in_or_app. left. apply filter_In. split; [exact Hp|].
    apply memb_In in Ht. apply Z.ltb_ge in Hs. now rewrite Ht, Hs.
  - apply in_app_or in Hp as [Hp|Hp].
    + apply filter_In in Hp as [_ Hp]. apply andb_prop in Hp as [A B]. apply negb_true_iff, Z.ltb_ge in B. apply memb_In in A. auto.
    + destruct (Nat.ltb _ (pD P)); [|destruct added; [destruct Hp | discriminate]].
      destruct (picked_full _ _ _ _ _ _ Hc Hp) as (A & _ & C).
      apply andb_prop in C as [_ C]. apply Z.leb_le in C. auto.
Qed.

(* a GRAFT from a peer with a negative score is refused: answered with a PRUNE (the [true]), mesh unchanged.
   The handler also adds a backoff; the statement does not speak of it. *)
Theorem negative_score_graft_refused P sc s p t gm :
  aget t (mesh s) = Some gm -> memb p gm = false -> memb p (direct s) = false -> score_of sc p < 0 ->
  exists s' pen, handle_graft1 P sc s p t = (s', true, pen) /\ mesh s' = mesh s.
Proof.
  intros Hm Hg Hd Hs. apply Z.ltb_lt in Hs. unfold handle_graft1. rewrite Hm, Hg, Hd.
  destruct (backoff_of s t p) as [e|].
  - destruct (now s <? e); [eexists _, _; split; reflexivity|]. rewrite Hs. eexists _, _; split; reflexivity.
  - rewrite Hs. eexists _, _; split; reflexivity.
Qed.

Theorem join_never_grafts_negative P sc s t ch s' c p :
  join P sc s t ch = Some (s', c) -> aget t (mesh s) = None -> In p (aget_l t (mesh s')) -> 0 <= score_of sc p.
Proof.
  intros H Hm. destruct (join_inv _ _ _ _ _ _ _ H Hm) as (g & f & lp & [= -> _] & Hg).
  rewrite mesh_fold_log_graft. cbn [mesh set_fanout set_mesh]. rewrite aget_l_aset, Nat.eqb_refl. apply Hg.
Qed.

(* at the heartbeat every mesh member with a negative score is pruned; [npx] is the list of exactly those members
   (whether a PRUNE offers peer exchange is Model/Gate.v's hb_prune_px; hb_topics drops [npx]) *)
Theorem hb_prunes_negative_without_px P sc s t evs s' gr pr npx g0 p :
  hb_topic P sc s t evs = Some (s', gr, pr, npx) -> aget t (mesh s) = Some g0 -> In p g0 -> score_of sc p < 0 ->
  In p npx /\ In p pr /\ ~ In p (aget_l t (mesh s')).
Proof.
  intros H Hm Hp Hs. destruct (hb_topic_inv H) as (g1 & gr2 & pr3 & gr4 & gr5 & s1 & s2 & s3 & s4 & X).
  rewrite (hp_pr X), (hp_npx X). pose proof (hp_joined X) as Eg. rewrite Hm in Eg. injection Eg as <-.
  assert (Hn : In p (filter (fun p => score_of sc p <? 0) g0)) by (apply filter_In; split; [exact Hp | apply Z.ltb_lt; exact Hs]).
  split; [exact Hn|]. split; [apply in_or_app; left; exact Hn|].
  intros Hin. apply (hb_no_negative _ _ _ _ _ _ _ _ _ H) in Hin. lia.
Qed.
