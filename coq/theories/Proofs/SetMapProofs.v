(* Laws of the list-backed sets and association lists of Model/Router.v (memb, sadd, srem, subset, nodup_b;
   aget, aset, adel, aget_l).  Other models declare constants of their own for the same purpose.  A non-recursive
   copy with the same body is convertible with the one here, so a law applies to it as it stands (VerdictProofs
   uses memb_In so) or is transported by [exact] (EventLogProofs.memb_srem); a Fixpoint copy (TimeCache.lookup /
   setk, EventLog.lk) needs one pointwise equation first (DedupProofs.lookup_aget, EventLogProofs.lk_aget), because
   [aget] takes its value type inside the fix.  Where only the name is the same (EventLog.sadd prepends,
   RpcQueue.srem removes one occurrence), and in RpcQueueProofs and SeqnoValProofs, which do not import this file,
   the laws needed are proved on the spot. *)
From Coq Require Import List Bool Arith.
Import ListNotations.
From PS Require Import Model.Router Proofs.ListFacts.

Lemma memb_In x l : memb x l = true <-> In x l.
Proof.
  unfold memb. rewrite existsb_exists. split; [intros (y & Hy & E); apply Nat.eqb_eq in E; now subst|].
  intros H. exists x. split; [exact H | apply Nat.eqb_refl].
Qed.
Lemma memb_false_In x l : memb x l = false <-> ~ In x l.
Proof. rewrite <- memb_In. destruct (memb x l); intuition congruence. Qed.
Lemma memb_cons x y l : memb x (y :: l) = Nat.eqb x y || memb x l.
Proof. reflexivity. Qed.
Lemma memb_app x a b : memb x (a ++ b) = memb x a || memb x b.
Proof. apply existsb_app. Qed.
Lemma memb_filter (f : nat -> bool) x l : memb x (filter f l) = memb x l && f x.
Proof.
  induction l as [|y l IH]; [reflexivity|]. cbn [filter]. destruct (f y) eqn:E; rewrite ?memb_cons, IH;
    destruct (Nat.eqb_spec x y) as [->|]; rewrite ?E; cbn; auto using andb_false_r.
Qed.
Lemma filter_out_filter (f : nat -> bool) l : filter (fun x => negb (memb x (filter f l))) l = filter (fun x => negb (f x)) l.
Proof. apply filter_ext_in. intros a Ha. rewrite memb_filter. apply memb_In in Ha. now rewrite Ha. Qed.
Lemma memb_sadd x y l : memb x (sadd y l) = Nat.eqb x y || memb x l.
Proof.
  unfold sadd. destruct (memb y l) eqn:Hy.
  - destruct (Nat.eqb_spec x y) as [->|]; [now rewrite Hy | reflexivity].
  - rewrite memb_app. cbn. rewrite orb_false_r. apply orb_comm.
Qed.
Lemma memb_srem x y l : memb x (srem y l) = negb (Nat.eqb y x) && memb x l.
Proof. unfold srem. rewrite memb_filter. apply andb_comm. Qed.
Lemma subset_In a b x : subset a b = true -> In x a -> In x b.
Proof. unfold subset. rewrite forallb_forall. intros H Hx. apply memb_In, H, Hx. Qed.
Lemma nodup_b_NoDup l : nodup_b l = true -> NoDup l.
Proof.
  induction l as [|x l IH]; cbn; intros H; [constructor|]. apply andb_prop in H as [H1 H2].
  constructor; [apply memb_false_In, negb_true_iff, H1 | apply IH, H2].
Qed.
Lemma nodup_filter (f : nat -> bool) l : nodup_b l = true -> nodup_b (filter f l) = true.
Proof.
  induction l as [|y l IH]; [reflexivity|]. cbn [nodup_b filter]. intros H. apply andb_prop in H as [H1 H2].
  destruct (f y); [|exact (IH H2)]. cbn [nodup_b]. rewrite memb_filter, (IH H2).
  apply negb_true_iff in H1. now rewrite H1.
Qed.
Lemma In_sadd y x l : In y (sadd x l) <-> y = x \/ In y l.
Proof. rewrite <- !memb_In, memb_sadd, orb_true_iff, Nat.eqb_eq. tauto. Qed.
Lemma sadd_NoDup x l : NoDup l -> NoDup (sadd x l).
Proof.
  unfold sadd. destruct (memb x l) eqn:E; [auto|]. intros H. apply memb_false_In in E.
  apply (NoDup_Add (Add_app x l [])). rewrite app_nil_r. auto.
Qed.

Lemma aget_aset {V} k j (v : V) l : aget k (aset j v l) = if Nat.eqb k j then Some v else aget k l.
Proof.
  induction l as [|[i w] l IH]; cbn; [reflexivity|]. destruct (Nat.eqb_spec j i) as [->|Hji]; cbn.
  - now destruct (Nat.eqb k i).
  - rewrite IH. destruct (Nat.eqb_spec k i) as [->|]; [|reflexivity]. destruct (Nat.eqb_spec i j); [congruence | reflexivity].
Qed.
Lemma aget_aset_same {V} k (v : V) l : aget k (aset k v l) = Some v.
Proof. now rewrite aget_aset, Nat.eqb_refl. Qed.
Lemma aget_aset_other {V} k j (v : V) l : k <> j -> aget k (aset j v l) = aget k l.
Proof. intros H. rewrite aget_aset. now destruct (Nat.eqb_spec k j). Qed.
(* a filter that looks at keys only needs no uniqueness of keys; [adel] is one *)
Lemma aget_filter_key {V} (g : nat -> bool) k (l : list (nat * V)) :
  aget k (filter (fun e => g (fst e)) l) = if g k then aget k l else None.
Proof.
  induction l as [|[j w] l IH]; cbn; [now destruct (g k)|].
  destruct (g j) eqn:E; cbn; destruct (Nat.eqb_spec k j) as [->|]; rewrite ?E; auto. now rewrite IH, E.
Qed.
Lemma aget_adel {V} k j (l : list (nat * V)) : aget k (adel j l) = if Nat.eqb k j then None else aget k l.
Proof. unfold adel. rewrite (aget_filter_key (fun i => negb (Nat.eqb j i))), (Nat.eqb_sym j k). now destruct (Nat.eqb k j). Qed.
Lemma aget_map_vals {V W} (f : V -> W) k (l : list (nat * V)) :
  aget k (map (fun e => (fst e, f (snd e))) l) = option_map f (aget k l).
Proof. induction l as [|[j w] l IH]; cbn; [reflexivity|]. destruct (Nat.eqb k j); [reflexivity | exact IH]. Qed.
Lemma keys_map_vals {V W} (f : V -> W) (l : list (nat * V)) : map fst (map (fun e => (fst e, f (snd e))) l) = map fst l.
Proof. rewrite map_map. reflexivity. Qed.
Lemma aget_In {V} k (v : V) l : aget k l = Some v -> In (k, v) l.
Proof.
  induction l as [|[j w] l IH]; cbn; [discriminate|]. destruct (Nat.eqb_spec k j) as [->|]; [|auto].
  intros E. injection E as ->. now left.
Qed.
Lemma memb_keys {V} k (l : list (nat * V)) : memb k (map fst l) = match aget k l with Some _ => true | None => false end.
Proof. induction l as [|[j v] l IH]; [reflexivity|]. cbn [map fst aget]. rewrite memb_cons. now destruct (Nat.eqb k j). Qed.
Lemma aget_notin {V} k (l : list (nat * V)) : ~ In k (map fst l) -> aget k l = None.
Proof. intros H. apply memb_false_In in H. rewrite memb_keys in H. now destruct (aget k l). Qed.
Lemma keys_aset {V} k (v : V) l : map fst (aset k v l) = sadd k (map fst l).
Proof.
  unfold sadd. induction l as [|[j w] l IH]; [reflexivity|]. cbn [aset map fst]. rewrite memb_cons.
  destruct (Nat.eqb k j); [reflexivity|]. cbn [orb map fst]. rewrite IH. now destruct (memb k (map fst l)).
Qed.
Lemma NoDup_keys_aset {V} k (v : V) l : NoDup (map fst l) -> NoDup (map fst (aset k v l)).
Proof. rewrite keys_aset. apply sadd_NoDup. Qed.
Lemma NoDup_keys_filter {V} (g : nat * V -> bool) (l : list (nat * V)) : NoDup (map fst l) -> NoDup (map fst (filter g l)).
Proof.
  induction l as [|e l IH]; cbn; [auto|]. intros H. inversion H as [|? ? Hn Hd]; subst.
  destruct (g e); cbn; [|auto]. constructor; [|auto]. intros Hin. apply Hn.
  apply in_map_iff in Hin as (x & <- & Hx). apply in_map, (proj1 (filter_In _ _ _) Hx).
Qed.
Lemma aget_filter {V} (g : nat * V -> bool) k (l : list (nat * V)) :
  NoDup (map fst l) -> aget k (filter g l) = match aget k l with Some v => if g (k, v) then Some v else None | None => None end.
Proof.
  induction l as [|[j w] l IH]; cbn; [reflexivity|]. intros H. inversion H as [|? ? Hn Hd]; subst.
  destruct (Nat.eqb_spec k j) as [->|Hne].
  - destruct (g (j, w)) eqn:E; cbn; [now rewrite Nat.eqb_refl|]. rewrite IH by assumption. now rewrite (aget_notin j l Hn).
  - destruct (g (j, w)); cbn; [|auto]. destruct (Nat.eqb_spec k j); [contradiction | auto].
Qed.
Lemma aget_l_aset k j v (l : list (nat * list nat)) : aget_l k (aset j v l) = if Nat.eqb k j then v else aget_l k l.
Proof. unfold aget_l. rewrite aget_aset. now destruct (Nat.eqb k j). Qed.
Lemma aget_l_of k (l : list (nat * list nat)) v : aget k l = Some v -> aget_l k l = v.
Proof. unfold aget_l. now intros ->. Qed.

Lemma In_aget {V} k (v : V) l : NoDup (map fst l) -> In (k, v) l -> aget k l = Some v.
Proof.
  induction l as [|[j w] l IH]; cbn [map fst aget]; intros Hnd Hin; [destruct Hin|]. inversion Hnd as [|? ? Hj Hl]; subst.
  destruct Hin as [[= -> ->]|Hin]; [now rewrite Nat.eqb_refl|].
  destruct (Nat.eqb_spec k j) as [->|]; [|now apply IH]. destruct Hj. exact (in_map fst _ _ Hin).
Qed.

Lemma Forall_aset {V} (Qp : nat * V -> Prop) k v l : Forall Qp l -> Qp (k, v) -> Forall Qp (aset k v l).
Proof. intros Hl Hv. induction Hl as [|[j w] l Hj Hl IH]; cbn; [auto|]. destruct (Nat.eqb_spec k j) as [->|]; auto. Qed.

Lemma Forall_aget {V} (Qp : nat * V -> Prop) k v l : Forall Qp l -> aget k l = Some v -> Qp (k, v).
Proof. intros H E. rewrite Forall_forall in H. apply H, aget_In, E. Qed.

Lemma aget_fold_aset {V} (T : V) ids : forall (old : list (nat * V)) i,
  aget i (fold_left (fun acc j => aset j T acc) ids old) = if memb i ids then Some T else aget i old.
Proof.
  induction ids as [|j r IH]; intros old i; [reflexivity|].
  cbn [fold_left]. rewrite IH, memb_cons, aget_aset. destruct (memb i r); [rewrite orb_true_r | rewrite orb_false_r]; reflexivity.
Qed.
Lemma keys_fold_aset {V} (T : V) ids : forall (old : list (nat * V)),
  NoDup (map fst old) -> NoDup (map fst (fold_left (fun acc j => aset j T acc) ids old)).
Proof. apply (fold_left_inv (fun acc => NoDup (map fst acc))). intros acc j _. apply NoDup_keys_aset. Qed.
Lemma In_fold_sadd l : forall acc x, In x (fold_left (fun a p => sadd p a) l acc) <-> In x acc \/ In x l.
Proof.
  induction l as [|y l IH]; intros acc x; cbn [fold_left]; [cbn [In]; tauto|].
  rewrite IH, In_sadd. cbn [In]. split; intros [H|H]; auto; destruct H; auto.
Qed.
Lemma aget_l_In k l x : In x (aget_l k l) -> aget k l <> None.
Proof. unfold aget_l. destruct (aget k l); [discriminate | intros []]. Qed.

(* maps of maps: Router.backoff, Gossip.unwanted *)
Definition aget2 {V} (k i : nat) (m : list (nat * list (nat * V))) : option V :=
  match aget k m with Some l => aget i l | None => None end.
Definition ukeys2 {V} (m : list (nat * list (nat * V))) : Prop :=
  NoDup (map fst m) /\ forall k l, aget k m = Some l -> NoDup (map fst l).
(* the periodic sweep: every inner map goes through [h], inner maps that become empty are dropped *)
Definition sweep {V} (h : list (nat * V) -> list (nat * V)) (m : list (nat * list (nat * V))) :=
  filter (fun e => match snd e with [] => false | _ => true end) (map (fun e => (fst e, h (snd e))) m).

Lemma aget_sweep {V} (h : list (nat * V) -> list (nat * V)) k m :
  NoDup (map fst m) -> aget k (sweep h m) = match aget k m with Some l => match h l with [] => None | x => Some x end | None => None end.
Proof.
  intros U. unfold sweep. rewrite aget_filter by (now rewrite keys_map_vals). rewrite aget_map_vals.
  destruct (aget k m) as [l|]; cbn; [now destruct (h l) | reflexivity].
Qed.
Lemma aget2_sweep {V} (h : list (nat * V) -> list (nat * V)) k i m :
  NoDup (map fst m) -> aget2 k i (sweep h m) = match aget k m with Some l => aget i (h l) | None => None end.
Proof. intros U. unfold aget2. rewrite aget_sweep by exact U. destruct (aget k m) as [l|]; [now destruct (h l) | reflexivity]. Qed.
Lemma ukeys2_sweep {V} (h : list (nat * V) -> list (nat * V)) m :
  (forall l, NoDup (map fst l) -> NoDup (map fst (h l))) -> ukeys2 m -> ukeys2 (sweep h m).
Proof.
  intros Hh [U1 U2]. split; [apply NoDup_keys_filter; now rewrite keys_map_vals|].
  intros k l. rewrite aget_sweep by exact U1. destruct (aget k m) as [l0|] eqn:E; [|discriminate].
  destruct (h l0) eqn:Eh; [discriminate|]. intros [= <-]. rewrite <- Eh. eauto.
Qed.
Lemma aget2_aset2 {V} k i k' i' (v : V) m :
  aget2 k' i' (aset k (aset i v (match aget k m with Some l => l | None => [] end)) m)
  = if Nat.eqb k' k && Nat.eqb i' i then Some v else aget2 k' i' m.
Proof.
  unfold aget2. rewrite aget_aset. destruct (Nat.eqb_spec k' k) as [->|]; [|reflexivity]. rewrite aget_aset. cbn.
  destruct (Nat.eqb i' i); [reflexivity|]. now destruct (aget k m).
Qed.
Lemma ukeys2_aset2 {V} k (f : list (nat * V) -> list (nat * V)) m :
  (forall l, NoDup (map fst l) -> NoDup (map fst (f l))) ->
  ukeys2 m -> ukeys2 (aset k (f (match aget k m with Some l => l | None => [] end)) m).
Proof.
  intros Hf [U1 U2]. split; [now apply NoDup_keys_aset|]. intros k' l. rewrite aget_aset.
  destruct (Nat.eqb k' k); [|apply U2]. intros [= <-]. apply Hf. destruct (aget k m) eqn:E; [eauto | constructor].
Qed.
