From Coq Require Import List Bool NArith Arith Lia.
Import ListNotations.
From PS Require Import Model.SeqnoVal Proofs.ListFacts.
Local Open Scope N_scope.

Definition top (a : author) (acc : list (author * N)) : N :=
  match acc_of a acc with [] => 0 | n :: _ => n end.

Lemma acc_of_cons a b q l :
  acc_of a ((b, q) :: l) = if Nat.eqb a b then q :: acc_of a l else acc_of a l.
Proof. unfold acc_of. cbn [filter fst]. destruct (Nat.eqb a b); reflexivity. Qed.

Lemma nonce_cons a b q l :
  nonce_of a ((b, q) :: l) = if Nat.eqb a b then q else nonce_of a l.
Proof. unfold nonce_of. cbn [sget]. destruct (Nat.eqb a b); reflexivity. Qed.

Record accepts (s : st) (i : tid) (t : thr) (q : N) (s' : st) : Prop := {
  ac_thr      : find_thr i (threads s) = Some t;
  ac_seq      : decode (t_seq t) = Some q;
  ac_above    : nonce_of (t_author t) (store s) < q;
  ac_store    : store s' = (t_author t, q) :: store s;
  ac_accepted : accepted s' = (t_author t, q) :: accepted s;
  ac_results  : results s' = (i, Accept) :: results s
}.

(* a step leaves the store and the acceptance log alone and accepts nothing, unless it is the exclusive
   phase of a validation whose number is above the nonce read at that very moment *)
Lemma step_cases s x s' :
  step s x = Some s' ->
  (store s' = store s /\ accepted s' = accepted s /\ forall j, In (j, Accept) (results s') -> In (j, Accept) (results s))
  \/ exists i t q, x = AP2 i /\ accepts s i t q s'.
Proof.
  assert (Ig : forall (i j : tid) l, In (j, Accept) ((i, Ignore) :: l) -> In (j, Accept) l) by (intros i j l [[=]|]; assumption).
  intros H. destruct x as [i a seq|i|i]; cbn [step] in H;
    destruct (find_thr i (threads s)) as [t|] eqn:Ef; try discriminate.
  - injection H as <-. auto.
  - destruct (t_phase t); [|discriminate]. left.
    destruct (decode (t_seq t)) as [q|]; [destruct (q <=? nonce_of (t_author t) (store s))|];
      injection H as <-; cbn; eauto.
  - destruct (t_phase t); [discriminate|]. destruct (decode (t_seq t)) as [q|] eqn:Ed; [|discriminate].
    destruct (N.leb_spec q (nonce_of (t_author t) (store s))); injection H as <-;
      [left; cbn; eauto|right; exists i, t, q; split; [reflexivity|now split]].
Qed.

Record author_ok (s : st) (a : author) : Prop := {
  ok_nonce : nonce_of a (store s) = top a (accepted s);
  ok_decr  : strictly_decreasing (acc_of a (accepted s)) = true;
  ok_pos   : forall q, In (a, q) (accepted s) -> 0 < q
}.
Definition Inv (s : st) : Prop := forall a, author_ok s a.

Lemma Inv_init : Inv init.
Proof. intros a. split; [reflexivity..|intros q []]. Qed.

Lemma Inv_step s x s' : Inv s -> step s x = Some s' -> Inv s'.
Proof.
  intros I H a. destruct (I a) as [I1 I2 I3]. unfold top in I1.
  destruct (step_cases s x s' H) as [(Es & Ea & _)|(i & t & q & _ & [_ _ Hlt Es Ea _])].
  { split; unfold top; rewrite ?Es, Ea; assumption. }
  split; unfold top; rewrite ?Es, Ea, ?nonce_cons, ?acc_of_cons;
    destruct (Nat.eqb_spec a (t_author t)) as [->|Hne]; auto.
  - (* q is above the nonce, which is the number accepted last *)
    cbn [strictly_decreasing]. destruct (acc_of (t_author t) (accepted s)) as [|y r]; [reflexivity|].
    rewrite I2, andb_true_r. apply N.ltb_lt. lia.
  - intros q' [[= <-]|Hin]; [lia|auto].
  - intros q' [[= E]|Hin]; [congruence|auto].
Qed.

Lemma Inv_reachable l s : run init l = Some s -> Inv s.
Proof. exact (run_invariant step run (fun _ => eq_refl) (fun _ _ _ => eq_refl) Inv Inv_step l init s Inv_init). Qed.

Theorem accepted_strictly_increasing l s :
  run init l = Some s -> forall a, strictly_decreasing (acc_of a (accepted s)) = true.
Proof. intros R a. exact (ok_decr _ _ (Inv_reachable _ _ R a)). Qed.

Theorem nonce_monotone s x s' :
  step s x = Some s' -> forall a, nonce_of a (store s) <= nonce_of a (store s').
Proof.
  intros H a. destruct (step_cases s x s' H) as [(-> & _)|(i & t & q & _ & A)]; [lia|].
  pose proof (ac_above _ _ _ _ _ A). rewrite (ac_store _ _ _ _ _ A), nonce_cons.
  destruct (Nat.eqb_spec a (t_author t)) as [->|]; lia.
Qed.

(* a validation is accepted only in its exclusive phase and only with a sequence number strictly
   above the stored nonce at that very moment (what is ignored changes nothing: replay_ignored_unchanged, malformed_ignored) *)
Theorem accept_only_above_nonce s x s' i :
  step s x = Some s' -> In (i, Accept) (results s') -> ~ In (i, Accept) (results s) ->
  x = AP2 i /\ exists t q, find_thr i (threads s) = Some t /\ decode (t_seq t) = Some q
                           /\ nonce_of (t_author t) (store s) < q
                           /\ store s' = (t_author t, q) :: store s
                           /\ accepted s' = (t_author t, q) :: accepted s.
Proof.
  intros H Hin Hnin. destruct (step_cases s x s' H) as [(_ & _ & Hr)|(j & t & q & -> & [Ef Ed Hlt Es Ea Er])].
  - now apply Hr in Hin.
  - rewrite Er in Hin. destruct Hin as [[= ->]|]; [eauto 10|contradiction].
Qed.

Theorem replay_ignored_unchanged s i t q :
  find_thr i (threads s) = Some t -> decode (t_seq t) = Some q ->
  q <= nonce_of (t_author t) (store s) ->
  forall x s', (x = AP1 i \/ x = AP2 i) -> step s x = Some s' ->
    In (i, Ignore) (results s') /\ store s' = store s /\ accepted s' = accepted s.
Proof.
  intros Ef Ed Hle x s' Hx H. apply N.leb_le in Hle.
  destruct Hx as [-> | ->]; cbn [step] in H; rewrite Ef in H; destruct (t_phase t); try discriminate;
    rewrite Ed, Hle in H; injection H as <-; cbn; auto.
Qed.

Theorem malformed_ignored s i t s' :
  find_thr i (threads s) = Some t -> decode (t_seq t) = None -> step s (AP1 i) = Some s' ->
  In (i, Ignore) (results s') /\ store s' = store s /\ accepted s' = accepted s.
Proof.
  intros Ef Ed H. cbn [step] in H. rewrite Ef in H. destruct (t_phase t); [|discriminate].
  rewrite Ed in H. inversion H; subst; cbn; auto.
Qed.
