(* Laws of the trace replay (C19): what each event does to the reconstructed view, and that the topics a replay
   reconstructs as joined are exactly those with an unmatched JOIN in the trace. *)
From Coq Require Import List Bool Arith.
Import ListNotations.
From PS Require Import Model.Router Model.Trace Proofs.SetMapProofs.

Definition in_mesh (v : tview) (t : topic) (p : peer) : bool :=
  match aget t (tv_mesh v) with Some m => memb p m | None => false end.
Definition joined (v : tview) (t : topic) : bool := match aget t (tv_mesh v) with Some _ => true | None => false end.

(* A view is observed through [joined], [in_mesh] and its peer set.  What one event does to each:
   JOIN / LEAVE open and close a topic; GRAFT adds exactly that peer to that topic's mesh (when joined), PRUNE removes
   exactly it; REMOVE_PEER removes the peer from the peer set and from every mesh; nothing else changes anything. *)
Lemma joined_replay1 v e u :
  joined (replay1 v e) u = match e with
                           | TJoin t => Nat.eqb u t || joined v u
                           | TLeave t => negb (Nat.eqb u t) && joined v u
                           | _ => joined v u
                           end.
Proof.
  unfold joined. destruct e; cbn [replay1 tv_mesh]; try reflexivity.
  - rewrite aget_map_vals. now destruct (aget _ _).
  - destruct (aget t (tv_mesh v)) eqn:E; [|rewrite aget_aset]; destruct (Nat.eqb_spec u t) as [->|]; now rewrite ?E.
  - rewrite aget_adel. now destruct (Nat.eqb u t).
  - destruct (aget t (tv_mesh v)) eqn:E; [rewrite aget_aset|]; destruct (Nat.eqb_spec u t) as [->|]; now rewrite ?E.
  - destruct (aget t (tv_mesh v)) eqn:E; [rewrite aget_aset|]; destruct (Nat.eqb_spec u t) as [->|]; now rewrite ?E.
Qed.
Lemma in_mesh_replay1 v e u q :
  in_mesh (replay1 v e) u q = match e with
                              | TGraft p t => (joined v t && Nat.eqb u t && Nat.eqb q p) || in_mesh v u q
                              | TPrune p t => in_mesh v u q && negb (Nat.eqb u t && Nat.eqb p q)
                              | TRemovePeer p => in_mesh v u q && negb (Nat.eqb p q)
                              | TLeave t => negb (Nat.eqb u t) && in_mesh v u q
                              | _ => in_mesh v u q
                              end.
Proof.
  unfold in_mesh, joined. destruct e; cbn [replay1 tv_mesh]; try reflexivity.
  - rewrite aget_map_vals. destruct (aget _ _); cbn [option_map]; [rewrite memb_srem; apply andb_comm | reflexivity].
  - destruct (aget t (tv_mesh v)) eqn:E; [reflexivity|]. rewrite aget_aset. destruct (Nat.eqb_spec u t) as [->|]; now rewrite ?E.
  - rewrite aget_adel. now destruct (Nat.eqb u t).
  - destruct (aget t (tv_mesh v)) eqn:E; [rewrite aget_aset|]; destruct (Nat.eqb_spec u t) as [->|]; rewrite ?E, ?memb_sadd; cbn; auto.
  - destruct (aget t (tv_mesh v)) eqn:E; [rewrite aget_aset|]; destruct (Nat.eqb_spec u t) as [->|]; rewrite ?E, ?memb_srem; cbn;
      auto using andb_comm, andb_true_r.
Qed.
Lemma peers_replay1 v e q :
  memb q (tv_peers (replay1 v e)) = match e with
                                    | TAddPeer p => Nat.eqb q p || memb q (tv_peers v)
                                    | TRemovePeer p => negb (Nat.eqb p q) && memb q (tv_peers v)
                                    | _ => memb q (tv_peers v)
                                    end.
Proof. destruct e; cbn [replay1 tv_peers]; auto using memb_sadd, memb_srem. Qed.

(* other events leave the view alone *)
Theorem replay_other v e : match e with TDeliver _ | TPublish _ | TSend _ | TDrop _ => replay1 v e = v | _ => True end.
Proof. destruct e; exact I || reflexivity. Qed.

(* the joined set reconstructed from a trace is the set of topics with an unmatched JOIN *)
Fixpoint joined_after (j : list topic) (l : list tev) : list topic :=
  match l with
  | [] => j
  | TJoin t :: l' => joined_after (sadd t j) l'
  | TLeave t :: l' => joined_after (srem t j) l'
  | _ :: l' => joined_after j l'
  end.
Theorem replay_joined l : forall v j,
  (forall u, joined v u = memb u j) -> forall u, joined (replay v l) u = memb u (joined_after j l).
Proof.
  induction l as [|e l IH]; intros v j H u; [apply H|]. change (replay v (e :: l)) with (replay (replay1 v e) l).
  destruct e; cbn [joined_after]; apply IH; intros w; rewrite joined_replay1, ?memb_sadd, ?memb_srem, H, 1?(Nat.eqb_sym w t); reflexivity.
Qed.
