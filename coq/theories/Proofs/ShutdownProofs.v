From Coq Require Import List Bool.
Import ListNotations.
From PS Require Import Model.Shutdown.

(* if every send site is guarded, every call made or in progress after shutdown returns, whatever the buffers hold *)
Theorem guarded_calls_return l : all_guarded l = true -> forall free, fst (call_after_shutdown l free) = Returned.
Proof.
  induction l as [|s l IH]; intros H free; [reflexivity|].
  cbn in H. apply andb_true_iff in H as [Hs Hl].
  cbn [call_after_shutdown]. unfold send_after_shutdown. rewrite Hs. apply IH, Hl.
Qed.

(* one bare send is enough to hang a caller: the second use of an unguarded, capacity-1 channel after shutdown *)
Theorem unguarded_send_can_block s :
  s_guarded s = false -> fst (call_after_shutdown [s; s] 1) = BlockedForever.
Proof. intros H. cbn. unfold send_after_shutdown. rewrite H. destruct (s_buffered s); reflexivity. Qed.

(* the event loop never blocks on an answer: for a request of a safe shape, whatever the caller does that it is able
   to do, the loop's send returns *)
Lemma safe_reply_returns r caller_left :
  reply_safe r = true -> (caller_left = true -> caller_may_leave r = true) -> reply_send r caller_left = Returned.
Proof.
  unfold reply_safe, caller_may_leave, reply_send. intros H Hc.
  destruct (r_buffered r); [reflexivity|]. destruct caller_left; [|reflexivity].
  cbn in H. rewrite H in Hc. discriminate (Hc eq_refl).
Qed.

(* and an unbuffered reply channel whose maker may leave is enough to hang the loop for good *)
Theorem unsafe_reply_blocks_loop r :
  reply_safe r = false -> caller_may_leave r = true /\ reply_send r true = BlockedForever.
Proof.
  unfold reply_safe, caller_may_leave, reply_send. intros [-> ->]%orb_false_iff. split; reflexivity.
Qed.
