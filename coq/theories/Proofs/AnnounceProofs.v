(* C05: interest announcements converge to the true subscription state. *)
From Coq Require Import List Bool Arith Lia.
Import ListNotations.
From PS Require Import Model.Router Model.Announce Proofs.ListFacts Proofs.SetMapProofs.

Definition AInv (s : astate) : Prop :=
  forall q t, In q (a_conn s) -> told s q t = interested s t \/ In (q, t, interested s t) (a_pending s).

Lemma cnt_aset_same t n l : cnt t (aset t n l) = n.
Proof. unfold cnt. rewrite aget_aset_same. reflexivity. Qed.
Lemma cnt_aset_other t u n l : t <> u -> cnt t (aset u n l) = cnt t l.
Proof. intros H. unfold cnt. rewrite aget_aset_other by exact H. reflexivity. Qed.

Lemma told_set_view s q t b q' t' :
  told (set_view s q t b) q' t' = if Nat.eqb q' q && Nat.eqb t' t then b else told s q' t'.
Proof.
  unfold told, view_of, set_view. cbn [a_view]. rewrite aget_l_aset.
  destruct (Nat.eqb_spec q' q) as [->|]; [cbn [andb] | reflexivity].
  destruct b; rewrite ?memb_sadd, ?memb_srem, ?(Nat.eqb_sym t t'); destruct (Nat.eqb t' t); reflexivity.
Qed.

Lemma told_add_pending s q t b q' t' : told (add_pending s q t b) q' t' = told s q' t'.
Proof. reflexivity. Qed.

Lemma interested_set_view s q t b u : interested (set_view s q t b) u = interested s u.
Proof. reflexivity. Qed.
Lemma interested_add_pending s q t b u : interested (add_pending s q t b) u = interested s u.
Proof. reflexivity. Qed.

Lemma announce_conn s t b full : a_conn (announce s t b full) = a_conn s.
Proof. unfold announce. apply fold_left_inv; [|reflexivity]. intros st q _ E. rewrite <- E. destruct (memb q full); reflexivity. Qed.
Lemma announce_interested s t b full u : interested (announce s t b full) u = interested s u.
Proof.
  unfold announce. apply fold_left_inv; [|reflexivity]. intros st q _ E.
  destruct (memb q full); [rewrite interested_add_pending | rewrite interested_set_view]; exact E.
Qed.

(* what it does, in closed form: the peers whose queue took the push are told b, the others get a pending entry *)
Section Announce.
Variables (t : topic) (b : bool) (full : list peer).
Let tell (st : astate) (q : nat) := if memb q full then add_pending st q t b else set_view st q t b.

Lemma told_announce conn : forall s q u,
  told (fold_left tell conn s) q u = if Nat.eqb u t && memb q conn && negb (memb q full) then b else told s q u.
Proof.
  induction conn as [|q0 conn IH]; intros s q u; cbn [fold_left]; [now rewrite andb_false_r|].
  rewrite IH, memb_cons. unfold tell.
  destruct (memb q0 full) eqn:Ef.
  - rewrite told_add_pending. destruct (Nat.eqb_spec q q0) as [->|]; [rewrite Ef, !andb_false_r|]; reflexivity.
  - rewrite told_set_view. destruct (Nat.eqb_spec q q0) as [->|]; cbn [orb andb]; [|reflexivity].
    rewrite Ef. destruct (Nat.eqb u t), (memb q0 conn); reflexivity.
Qed.
Lemma pending_announce conn : forall s,
  a_pending (fold_left tell conn s) = a_pending s ++ map (fun q => (q, t, b)) (filter (fun q => memb q full) conn).
Proof.
  induction conn as [|q0 conn IH]; intros s; cbn [fold_left filter]; [now rewrite app_nil_r|].
  rewrite IH. unfold tell. destruct (memb q0 full); cbn [a_pending add_pending set_view map]; [now rewrite <- app_assoc | reflexivity].
Qed.
End Announce.

(* the counts of topic t change: either the interest in t stays and nothing is announced, or it becomes b and b is announced *)
Lemma AInv_counts s su re t (c b : bool) full :
  AInv s -> (forall u, u <> t -> cnt u su = cnt u (a_subs s) /\ cnt u re = cnt u (a_relays s)) ->
  interested (set_counts s su re) t = (if c then interested s t else b) ->
  AInv (if c then set_counts s su re else announce (set_counts s su re) t b full).
Proof.
  intros HI Hcnt Ht. set (s1 := set_counts s su re) in *.
  assert (Hoth : forall u, u <> t -> interested s1 u = interested s u).
  { intros u Hu. unfold interested. cbn [a_subs a_relays s1 set_counts]. destruct (Hcnt u Hu) as [-> ->]. reflexivity. }
  (* s1 has the connections, views and pending entries of s *)
  destruct c; intros q u Hq.
  - assert (E : interested s1 u = interested s u) by (destruct (Nat.eq_dec u t) as [->|Hu]; [exact Ht | exact (Hoth u Hu)]).
    rewrite E. exact (HI q u Hq).
  - rewrite announce_conn in Hq. rewrite announce_interested. unfold announce. rewrite told_announce, pending_announce.
    rewrite (proj2 (memb_In q (a_conn s1)) Hq), andb_true_r.
    destruct (Nat.eqb_spec u t) as [->|Hu]; cbn [andb].
    + rewrite Ht. destruct (memb q full) eqn:Ef; [right | left; reflexivity].
      apply in_or_app. right. apply in_map_iff. exists q. split; [reflexivity | apply filter_In; auto].
    + rewrite (Hoth u Hu). destruct (HI q u Hq) as [H|H]; [left; exact H | right; apply in_or_app; left; exact H].
Qed.

Definition no_forget (o : aop) : bool := match o with AForget _ => false | _ => true end.

Lemma cnt_pos_In u l : 0 < cnt u l -> In u (map fst l).
Proof.
  unfold cnt. destruct (aget u l) as [n|] eqn:Ea; [|lia]. intros _.
  apply in_map_iff. exists (u, n). split; [reflexivity | apply aget_In; exact Ea].
Qed.

Lemma dedup_t_In x l : In x (dedup_t l) <-> In x l.
Proof. exact (dedup_In dedup_t eq_refl (fun _ _ => eq_refl) x l). Qed.

(* the hello packet lists exactly the current interests *)
Lemma hello_topics s u : memb u (dedup_t (all_topics s)) = interested s u.
Proof.
  destruct (interested s u) eqn:Ei.
  - apply memb_In, dedup_t_In, filter_In. split; [|exact Ei]. unfold interested in Ei. apply orb_true_iff in Ei.
    apply in_or_app. destruct Ei as [Ei|Ei]; [left|right]; apply Nat.ltb_lt in Ei; apply cnt_pos_In; exact Ei.
  - apply memb_false_In. rewrite dedup_t_In. unfold all_topics. rewrite filter_In. intros [_ E]. congruence.
Qed.

(* the invariant of a state with the counts of s, in terms of its other fields *)
Lemma AInv_same_counts s co vi pe :
  (forall q u, In q co -> memb u (aget_l q vi) = interested s u \/ In (q, u, interested s u) pe) ->
  AInv {| a_subs := a_subs s; a_relays := a_relays s; a_conn := co; a_view := vi; a_pending := pe |}.
Proof. intros H. exact H. Qed.

Lemma AInv_step s o s' : AInv s -> no_forget o = true -> astep s o = Some s' -> AInv s'.
Proof.
  intros HI Hnf H. destruct o as [t full|t full|t full|t full|q|q|k full|q]; cbn [astep] in H; try discriminate.
  - (* Subscribe *)
    injection H as <-. apply AInv_counts; [exact HI | intros u Hu; rewrite cnt_aset_other by exact Hu; auto|].
    unfold interested at 1. cbn [a_subs set_counts]. rewrite cnt_aset_same. destruct (interested s t); reflexivity.
  - (* Cancel *)
    destruct (cnt t (a_subs s)) as [|n] eqn:Ec; [discriminate|]. injection H as <-.
    apply AInv_counts; [exact HI | intros u Hu; rewrite cnt_aset_other by exact Hu; auto|].
    destruct (interested (set_counts _ _ _) t); [unfold interested; rewrite Ec|]; reflexivity.
  - (* Relay *)
    injection H as <-. apply AInv_counts; [exact HI | intros u Hu; rewrite cnt_aset_other by exact Hu; auto|].
    unfold interested at 1. cbn [a_relays set_counts]. rewrite cnt_aset_same, orb_true_r. destruct (interested s t); reflexivity.
  - (* RelayCancel *)
    destruct (cnt t (a_relays s)) as [|n] eqn:Ec; [discriminate|]. injection H as <-.
    apply AInv_counts; [exact HI | intros u Hu; rewrite cnt_aset_other by exact Hu; auto|].
    destruct (interested (set_counts _ _ _) t); [unfold interested; rewrite Ec, orb_true_r|]; reflexivity.
  - (* Connect: hello *)
    destruct (memb q (a_conn s)) eqn:Em; [discriminate|]. injection H as <-. apply AInv_same_counts. intros q' u Hq'.
    rewrite aget_l_aset. destruct (Nat.eqb_spec q' q) as [->|Hne]; [left; apply hello_topics|].
    apply in_app_or in Hq'. destruct Hq' as [Hq'|[->|[]]]; [|contradiction].
    destruct (HI q' u Hq') as [Hh|Hh]; [left; exact Hh|].
    right. apply filter_In. split; [exact Hh|]. cbn. apply negb_true_iff, Nat.eqb_neq. exact Hne.
  - (* Disconnect *)
    injection H as <-. apply AInv_same_counts. intros q' u Hq'.
    unfold srem in Hq'. apply filter_In in Hq'. destruct Hq' as [Hq' Hne]. apply negb_true_iff, Nat.eqb_neq in Hne.
    unfold aget_l. rewrite aget_adel, (proj2 (Nat.eqb_neq q' q)) by congruence. exact (HI q' u Hq').
  - (* Retry: the entry taken out is put back, acted on, or dropped *)
    destruct (nth_error (a_pending s) k) as [[[q t] b]|] eqn:En; [|discriminate].
    set (rest := firstn k (a_pending s) ++ skipn (S k) (a_pending s)) in *.
    assert (H1 : forall q' u, In q' (a_conn s) ->
                   told s q' u = interested s u \/ In (q', u, interested s u) rest \/ (q', u, interested s u) = (q, t, b)).
    { intros q' u Hq'. destruct (HI q' u Hq') as [Hh|Hh]; [tauto|]. destruct (In_remove_nth _ _ _ _ En Hh); tauto. }
    destruct (Bool.eqb (interested s t) b && memb q (a_conn s)) eqn:Ec; injection H as <-.
    + apply andb_true_iff in Ec. destruct Ec as [Eb _]. apply eqb_prop in Eb.
      destruct full; [apply AInv_same_counts|]; intros q' u Hq'.
      * rewrite in_app_iff. cbn [In]. destruct (H1 q' u Hq') as [Hh|[Hh|Hh]]; auto.
      * rewrite told_set_view. destruct (Nat.eqb q' q && Nat.eqb u t) eqn:E.
        -- apply andb_true_iff in E as [->%Nat.eqb_eq ->%Nat.eqb_eq]. left. symmetry. exact Eb.
        -- destruct (H1 q' u Hq') as [Hh|[Hh|[= -> -> <-]]]; [left; exact Hh | right; exact Hh|].
           rewrite !Nat.eqb_refl in E. discriminate.
    + (* dropped: it is stale, or the peer is gone *)
      apply AInv_same_counts. intros q' u Hq'.
      destruct (H1 q' u Hq') as [Hh|[Hh|[= -> -> <-]]]; [left; exact Hh | right; exact Hh|].
      apply andb_false_iff in Ec. destruct Ec as [Ec|Ec]; [rewrite eqb_reflx in Ec; discriminate|].
      apply memb_false_In in Ec. contradiction.
Qed.

Theorem AInv_run l : forall s s', AInv s -> forallb no_forget l = true -> arun s l = Some s' -> AInv s'.
Proof.
  induction l as [|o l IH]; intros s s' HI Hnf H; cbn in H; [injection H as <-; exact HI|].
  cbn in Hnf. apply andb_true_iff in Hnf. destruct Hnf as [H1 H2].
  destruct (astep s o) as [s1|] eqn:E; [|discriminate]. eapply IH; [eapply AInv_step; eassumption | exact H2 | exact H].
Qed.

(* C05: after ANY sequence of subscribe / cancel / relay / relay-cancel / connect / disconnect, with any pushes
   refused by full queues and retried in any order, once no retry is pending every connected peer has been told
   exactly the topics the node is interested in *)
Theorem announcements_converge l s :
  forallb no_forget l = true -> arun ainit l = Some s -> a_pending s = [] ->
  forall q t, In q (a_conn s) -> told s q t = interested s t.
Proof.
  intros Hnf Hr Hp q t Hq.
  assert (HI : AInv s) by (eapply AInv_run; [|exact Hnf | exact Hr]; intros q' t' []).
  destruct (HI q t Hq) as [H|H]; [exact H|]. rewrite Hp in H. destruct H.
Qed.

(* if a receiver forgets while the connection survives, nothing re-announces: convergence fails (known finding) *)
Theorem converge_refuted_by_forget :
  exists l s, arun ainit l = Some s /\ a_pending s = [] /\ exists q t, In q (a_conn s) /\ told s q t <> interested s t.
Proof.
  exists [AConnect 1; ASubscribe 0 []; AForget 1]. eexists. split; [vm_compute; reflexivity|]. split; [reflexivity|].
  exists 1, 0. split; [left; reflexivity | vm_compute; discriminate].
Qed.
