(* C01: flooding with duplicate suppression delivers a message exactly once to every node of a connected overlay. *)
From Coq Require Import List Bool Arith Lia.
Import ListNotations.
From PS Require Import Model.Router Model.Flood Proofs.ListFacts Proofs.SetMapProofs.

Lemma uniq_In x l : In x (uniq l) <-> In x l.
Proof.
  induction l as [|y l IH]; cbn; [tauto|]. destruct (memb y l) eqn:E.
  - rewrite IH. split; [tauto|]. intros [->|H]; [apply memb_In; exact E | exact H].
  - cbn. rewrite IH. tauto.
Qed.
Lemma uniq_NoDup l : NoDup (uniq l).
Proof.
  induction l as [|y l IH]; cbn; [constructor|]. destruct (memb y l) eqn:E; [exact IH|].
  constructor; [|exact IH]. rewrite uniq_In. apply memb_false_In. exact E.
Qed.

Lemma nbrs_nodes g u v : In v (nbrs g u) -> In v (nodes g).
Proof.
  unfold nbrs, nodes. rewrite !in_flat_map. intros [e [He Hv]]. exists e. split; [exact He|].
  destruct (Nat.eqb (fst e) u); [destruct Hv as [<-|[]]; right; left; reflexivity|].
  destruct (Nat.eqb (snd e) u); [destruct Hv as [<-|[]]; left; reflexivity | destruct Hv].
Qed.

(* one round of [flood]: the unseen neighbours of the frontier *)
Definition round (g : graph) (seen frontier : list nat) : list nat :=
  uniq (filter (fun v => negb (memb v seen)) (flat_map (nbrs g) frontier)).
Lemma round_In g seen frontier v : In v (round g seen frontier) <-> ~ In v seen /\ exists u, In u frontier /\ In v (nbrs g u).
Proof. unfold round. rewrite uniq_In, filter_In, in_flat_map, negb_true_iff, memb_false_In. tauto. Qed.

(* the invariant between rounds; [fi_nodes] is what bounds their number *)
Set Implicit Arguments.
Record FI (g : graph) (src : nat) (seen frontier : list nat) : Prop := {
  fi_nodup : NoDup seen;
  fi_src : In src seen;
  fi_sound : forall v, In v seen -> reach g src v;
  fi_front : incl frontier seen;
  fi_closed : forall u, In u seen -> ~ In u frontier -> forall v, In v (nbrs g u) -> In v seen;
  fi_nodes : incl seen (src :: nodes g)
}.
Unset Implicit Arguments.

Lemma FI_init g src : FI g src [src] [src].
Proof.
  constructor.
  - constructor; [intros []|constructor].
  - left. reflexivity.
  - intros v [<-|[]]. constructor.
  - apply incl_refl.
  - intros u [<-|[]] Hn. exfalso. apply Hn. left. reflexivity.
  - intros v [<-|[]]. left. reflexivity.
Qed.

Lemma FI_round g src seen frontier :
  FI g src seen frontier -> FI g src (seen ++ round g seen frontier) (round g seen frontier).
Proof.
  intros [Hnd Hsrc Hsound Hfront Hclosed Hnodes]. pose proof (round_In g seen frontier) as Hnext. constructor.
  - apply NoDup_app_intro; [exact Hnd | apply uniq_NoDup|]. intros v Hv Hn. apply Hnext in Hn. tauto.
  - apply in_or_app. now left.
  - intros v Hv. apply in_app_or in Hv as [Hv|Hv]; [now apply Hsound|]. apply Hnext in Hv as (_ & u & Hu & Hv).
    eapply reach_step; [apply Hsound, Hfront, Hu | exact Hv].
  - intros v Hv. apply in_or_app. now right.
  - intros u Hu Hnf v Hv. apply in_app_or in Hu as [Hu|Hu]; [|contradiction]. rewrite in_app_iff, Hnext.
    destruct (in_dec Nat.eq_dec v seen) as [Hs|Hs]; [now left|].
    destruct (in_dec Nat.eq_dec u frontier) as [Hf|Hf]; [right; eauto | left; eapply Hclosed; eassumption].
  - intros v Hv. apply in_app_or in Hv as [Hv|Hv]; [now apply Hnodes|]. apply Hnext in Hv as (_ & u & _ & Hv).
    right. eapply nbrs_nodes, Hv.
Qed.

Definition closed (g : graph) (l : list nat) : Prop := forall u, In u l -> forall v, In v (nbrs g u) -> In v l.

Lemma closed_reach g src l : closed g l -> In src l -> forall v, reach g src v -> In v l.
Proof. intros Hc Hs v Hr. induction Hr as [|u v Hr IH Hv]; [exact Hs | eapply Hc; eassumption]. Qed.

(* a round that finds nothing new leaves nothing to do *)
Lemma FI_round_nil g src seen frontier : FI g src seen frontier -> round g seen frontier = [] -> closed g seen.
Proof.
  intros HF E u Hu v Hv. destruct (in_dec Nat.eq_dec v seen) as [Hs|Hs]; [exact Hs|].
  destruct (in_dec Nat.eq_dec u frontier) as [Hf|Hf]; [|eapply (fi_closed HF); eassumption].
  exfalso. assert (H : In v (round g seen frontier)) by (apply round_In; eauto). rewrite E in H. destruct H.
Qed.

(* every round with something new lengthens [seen], which stays within src :: nodes g: the fuel is never exhausted *)
Lemma flood_spec fuel : forall g src seen frontier,
  FI g src seen frontier -> S (length (nodes g)) < fuel + length seen ->
  exists fr, FI g src (flood fuel g seen frontier) fr /\ closed g (flood fuel g seen frontier).
Proof.
  induction fuel as [|fuel IH]; intros g src seen frontier HF Hfuel.
  - exfalso. pose proof (NoDup_incl_length (fi_nodup HF) (fi_nodes HF)). cbn in *. lia.
  - cbn [flood]. fold (round g seen frontier).
    pose proof (FI_round _ _ _ _ HF) as HR. pose proof (FI_round_nil _ _ _ _ HF) as HC.
    destruct (round g seen frontier) as [|n0 nx]; [exists frontier; auto|].
    apply IH; [exact HR|]. rewrite app_length. cbn. lia.
Qed.

(* C01: exactly the nodes reachable from the publisher along overlay edges deliver the message, each exactly once *)
Theorem flood_exactly_once g src :
  NoDup (delivered g src) /\ forall v, In v (delivered g src) <-> reach g src v.
Proof.
  unfold delivered.
  destruct (flood_spec (S (length (nodes g))) g src [src] [src] (FI_init g src)) as (fr & HF & Hcl); [cbn; lia|].
  split; [exact (fi_nodup HF)|]. intros v. split; [apply (fi_sound HF) | apply closed_reach; [exact Hcl | exact (fi_src HF)]].
Qed.

Definition connected_from (g : graph) (src : nat) (members : list nat) : Prop := forall v, In v members -> reach g src v.
Theorem connected_overlay_exactly_once g src members :
  connected_from g src members ->
  forall v, In v members -> count_occ Nat.eq_dec (delivered g src) v = 1.
Proof.
  intros Hc v Hv. destruct (flood_exactly_once g src) as [Hnd Hiff].
  assert (Hin : In v (delivered g src)) by (apply Hiff; apply Hc; exact Hv).
  apply NoDup_count_occ' with (decA := Nat.eq_dec) in Hin; [exact Hin | exact Hnd].
Qed.

(* within the degree bound the routers' random selection is exhaustive: picking up to n out of at most n candidates
   (or with n = 0, which take_count reads as "no limit") picks all of them - gossipsub's mesh / fanout selection with
   degree <= D, randomsub's with at most RandomSubD eligible peers *)
Theorem pick_all chosen cands n :
  pick_ok chosen cands n = true -> (n = 0 \/ length cands <= n) -> forall p, In p cands -> In p chosen.
Proof.
  unfold pick_ok. intros H Hb. apply andb_prop in H as [H Hlen]. apply andb_prop in H as [Hnd Hsub]. apply Nat.eqb_eq in Hlen.
  apply NoDup_length_incl; [apply nodup_b_NoDup, Hnd | | intros x; now apply subset_In].
  rewrite Hlen. unfold take_count. destruct n as [|n]; [apply Nat.le_refl|]. destruct Hb as [Hb|Hb]; [discriminate|].
  rewrite Nat.min_r by exact Hb. apply Nat.le_refl.
Qed.
