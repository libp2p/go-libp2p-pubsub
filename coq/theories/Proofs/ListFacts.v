(* List facts that no model owns and the standard library of Coq 8.16 lacks. *)
From Coq Require Import List Bool Arith.
Import ListNotations.

Lemma fold_left_inv {A B} (Q : A -> Prop) (f : A -> B -> A) l :
  (forall a b, In b l -> Q a -> Q (f a b)) -> forall a, Q a -> Q (fold_left f l a).
Proof. induction l as [|b l IH]; intros H a Ha; [exact Ha|]. apply IH; [intros; apply H | apply H]; cbn; auto. Qed.
Lemma fold_left_same {A B C} (c : A -> C) (f : A -> B -> A) l :
  (forall a b, In b l -> c (f a b) = c a) -> forall a, c (fold_left f l a) = c a.
Proof. intros H a. apply (fold_left_inv (fun x => c x = c a)); [intros x b Hb <-; now apply H | reflexivity]. Qed.

Lemma partition_filter {A} (f : A -> bool) l : partition f l = (filter f l, filter (fun x => negb (f x)) l).
Proof. induction l as [|x l IH]; cbn; [reflexivity|]. rewrite IH. destruct (f x); reflexivity. Qed.

Lemma firstn_In_sub {A} n (l : list A) x : In x (firstn n l) -> In x l.
Proof. rewrite <- (firstn_skipn n l) at 2. intros H. apply in_or_app. left. exact H. Qed.

Lemma iter_shift {A} (f : A -> A) k x : Nat.iter k f (f x) = f (Nat.iter k f x).
Proof. induction k as [|k IH]; [reflexivity | exact (f_equal f IH)]. Qed.

Lemma In_remove_nth {A} (l : list A) k x y :
  nth_error l k = Some y -> In x l -> x = y \/ In x (firstn k l ++ skipn (S k) l).
Proof.
  revert k. induction l as [|a l IH]; intros k Hn Hin; [destruct Hin|].
  destruct k as [|k]; cbn in *.
  - inversion Hn; subst. destruct Hin as [<-|Hin]; auto.
  - destruct Hin as [<-|Hin]; [right; left; reflexivity|]. destruct (IH k Hn Hin) as [H|H]; auto.
Qed.

Lemma NoDup_app_intro {A} (a b : list A) : NoDup a -> NoDup b -> (forall x, In x a -> In x b -> False) -> NoDup (a ++ b).
Proof.
  intros Ha Hb Hd. induction a as [|x a IH]; [exact Hb|]. cbn. inversion Ha; subst. constructor.
  - intros Hin. apply in_app_or in Hin. destruct Hin as [Hin|Hin]; [contradiction | apply (Hd x); [left; reflexivity | exact Hin]].
  - apply IH; [assumption|]. intros y Hy. apply Hd. right. exact Hy.
Qed.

Lemma existsb_map {X Y} (f : Y -> bool) (g : X -> Y) l : existsb f (map g l) = existsb (fun x => f (g x)) l.
Proof. induction l as [|x l IH]; [reflexivity|]. cbn [map existsb]. now rewrite IH. Qed.

Lemma existsb_ext {X} (f g : X -> bool) l : (forall x, f x = g x) -> existsb f l = existsb g l.
Proof. intros H. induction l as [|x l IH]; [reflexivity|]. cbn. now rewrite H, IH. Qed.

Lemma existsb_concat {X} (f : X -> bool) ll : existsb f (concat ll) = existsb (existsb f) ll.
Proof. induction ll as [|l ll IH]; [reflexivity|]. cbn [concat existsb]. now rewrite existsb_app, IH. Qed.

Lemma In_length_pos {A} (x : A) l : In x l -> 0 < length l.
Proof. destruct l; [intros [] | intros _; apply Nat.lt_0_succ]. Qed.
Lemma in_map_fst {A B} (i : A) (l : list (A * B)) : In i (map fst l) <-> exists t, In (i, t) l.
Proof.
  rewrite in_map_iff. split; [intros [[a b] [[= ->] Hi]]; eauto | intros [t Ht]; exists (i, t); auto].
Qed.
Lemma nth_firstn {A} (j g : nat) (l : list A) (d : A) :
  nth j (firstn g l) d = if Nat.ltb j g then nth j l d else d.
Proof.
  revert j l. induction g as [|g IH]; intros j l; [destruct j; reflexivity|].
  destruct l as [|x l]; [destruct j; cbn [firstn nth]; destruct (Nat.ltb _ _); reflexivity|].
  destruct j; [reflexivity|]. cbn [firstn nth]. rewrite IH. reflexivity.
Qed.

(* Every model has a [run] of its own over its [step]; an invariant of the steps is an invariant of the runs. *)
Lemma run_invariant {S A} (step : S -> A -> option S) (run : S -> list A -> option S) :
  (forall s, run s [] = Some s) ->
  (forall s a l, run s (a :: l) = match step s a with Some s' => run s' l | None => None end) ->
  forall P : S -> Prop, (forall s a s', P s -> step s a = Some s' -> P s') ->
  forall l s s', P s -> run s l = Some s' -> P s'.
Proof.
  intros Hnil Hcons P Hstep. induction l as [|a l IH]; intros s s' I.
  - rewrite Hnil. now intros [= <-].
  - rewrite Hcons. destruct (step s a) as [s1|] eqn:E; [|discriminate]. eauto.
Qed.

(* three models each declare this order-preserving dedup of their own; its members, by its two equations *)
Lemma dedup_In (d : list nat -> list nat) :
  d [] = [] -> (forall x r, d (x :: r) = x :: filter (fun y => negb (Nat.eqb x y)) (d r)) ->
  forall x l, In x (d l) <-> In x l.
Proof.
  intros H0 H1 x l. induction l as [|y l IH]; [now rewrite H0|]. rewrite H1. cbn [In]. rewrite filter_In, IH, negb_true_iff, Nat.eqb_neq.
  destruct (Nat.eq_dec y x) as [->|Hne]; tauto.
Qed.
