(* C02.  The seen cache of Model/TimeCache.v, then the node of Model/Dedup.v.  A pass is a successful markSeen.
   [K] is the invariant of a state: a pass is covered by the cache entry of its id while there is one and is more
   than ttl old otherwise, so two passes of one id are more than ttl apart.  [J t s0 s out] relates two states of
   a run and the events emitted between them: invocations and deliveries are paid for by the passes made on the
   way.  It composes ([J_trans]), every helper of [step] carries it along its accumulators, and the results for
   C02 are its fields for a run from [init]. *)
From Coq Require Import List Bool ZArith Lia.
Import ListNotations.
From PS Require Import Model.TimeCache Model.Dedup Proofs.SetMapProofs.
Local Open Scope Z_scope.

Definition keys (l : list (id * Z)) := map fst l.

Lemma lookup_aget i l : lookup i l = Router.aget i l.
Proof. induction l as [|[j e] l IH]; cbn; [reflexivity|]. now rewrite IH. Qed.
Lemma setk_aset i e l : setk i e l = Router.aset i e l.
Proof. induction l as [|[j e0] l IH]; cbn; [reflexivity|]. now rewrite IH. Qed.

Lemma lookup_setk i j e l : lookup i (setk j e l) = if Nat.eqb i j then Some e else lookup i l.
Proof. rewrite !lookup_aget, setk_aset. apply aget_aset. Qed.
Lemma NoDup_setk i e l : NoDup (keys l) -> NoDup (keys (setk i e l)).
Proof. rewrite setk_aset. apply NoDup_keys_aset. Qed.

Theorem tc_add_true_iff_absent c i now :
  fst (tc_add c i now) = true <-> lookup i (entries c) = None.
Proof. unfold tc_add. destruct (lookup i (entries c)); cbn; split; congruence. Qed.

Definition touch (c : tc) (i : id) (now : Z) : tc := with_entries c (setk i (now + ttl c) (entries c)).

Lemma tc_add_cases c i now :
  snd (tc_add c i now) = touch c i now \/ fst (tc_add c i now) = false /\ snd (tc_add c i now) = c.
Proof. unfold tc_add. destruct (lookup i (entries c)); [destruct (strat c)|]; auto. Qed.
Lemma tc_has_cases c i now : snd (tc_has c i now) = touch c i now \/ snd (tc_has c i now) = c.
Proof. unfold tc_has. destruct (lookup i (entries c)); [destruct (strat c)|]; auto. Qed.

Theorem tc_add_present c i now : exists e, lookup i (entries (snd (tc_add c i now))) = Some e.
Proof.
  destruct (tc_add_cases c i now) as [->|[F ->]].
  - cbn. rewrite lookup_setk, Nat.eqb_refl. eauto.
  - destruct (lookup i (entries c)) eqn:E; [eauto|]. apply (tc_add_true_iff_absent c i now) in E. congruence.
Qed.

Theorem tc_sweep_spec c i now :
  NoDup (keys (entries c)) ->
  lookup i (entries (tc_sweep c now))
  = match lookup i (entries c) with Some e => if e <? now then None else Some e | None => None end.
Proof.
  intros H. cbn. rewrite !lookup_aget, (aget_filter _ i _ H).
  destruct (Router.aget i (entries c)) as [e|]; cbn; [destruct (e <? now)|]; reflexivity.
Qed.

Fixpoint sep (t : Z) (l : list Z) : Prop :=      (* newest first *)
  match l with
  | b :: ((a :: _) as l') => a + t < b /\ sep t l'
  | _ => True
  end.

Record K (t : Z) (s : st) : Prop := {
  k_ttl : ttl (cache s) = t;
  k_pos : 0 <= t;
  k_nodup : NoDup (keys (entries (cache s)));
  k_exp : forall i e, lookup i (entries (cache s)) = Some e -> e <= clock s + t;
  k_pass : forall i a, In (i, a) (passes s) ->
             match lookup i (entries (cache s)) with Some e => a + t <= e | None => a + t < clock s end;
  k_sw : clock s < next_sweep s;
  k_sep : forall i, sep t (passes_of i s)
}.

Lemma K_remembered t s i a : K t s -> In (i, a) (passes s) -> clock s <= a + t -> lookup i (entries (cache s)) <> None.
Proof. intros Hk Hin Hc. pose proof (k_pass t s Hk i a Hin) as P. destruct (lookup i (entries (cache s))); [discriminate|lia]. Qed.

Lemma K_init sg t c : 0 <= t -> 0 < interval c -> K t (init sg t c).
Proof. intros Ht Hi. split; cbn; auto; try easy. constructor. Qed.

(* K reads the state through these four fields only, J below through them and [busy] *)
Definition core (s : st) := (cache s, clock s, next_sweep s, passes s).

Lemma K_core t s s' : core s' = core s -> K t s -> K t s'.
Proof. destruct s, s'. unfold core; cbn. intros [= -> -> -> ->] []. split; assumption. Qed.

Lemma K_touch t s j : K t s -> K t (set_cache s (touch (cache s) j (clock s))).
Proof.
  intros [T P N E A W S]. split; cbn; auto.
  - apply NoDup_setk, N.
  - intros i e. rewrite lookup_setk, T. destruct (Nat.eqb i j); [intros [= <-]; lia|apply E].
  - intros i a Hin. specialize (A i a Hin). rewrite lookup_setk, T.
    destruct (Nat.eqb_spec i j) as [->|]; [|exact A].
    destruct (lookup j (entries (cache s))) as [e|] eqn:El; [specialize (E j e El)|]; lia.
Qed.

Lemma K_has t s j : K t s -> K t (set_cache s (snd (tc_has (cache s) j (clock s)))).
Proof.
  intros H. destruct (tc_has_cases (cache s) j (clock s)) as [->| ->]; [apply K_touch, H|].
  revert H. apply K_core. reflexivity.
Qed.

Lemma gate_eq s i :
  gate s i = (fst (tc_add (cache s) i (clock s)),
              {| cache := snd (tc_add (cache s) i (clock s)); clock := clock s; next_sweep := next_sweep s;
                 queue := queue s; busy := busy s;
                 passes := if fst (tc_add (cache s) i (clock s)) then (i, clock s) :: passes s else passes s |}).
Proof. unfold gate. destruct (tc_add (cache s) i (clock s)); reflexivity. Qed.

Lemma in_passes_of i a s : In a (passes_of i s) -> In (i, a) (passes s).
Proof.
  unfold passes_of. intros H. apply in_map_iff in H as ([j b] & <- & Hin).
  apply filter_In in Hin as [Hin E]. apply Nat.eqb_eq in E. now subst.
Qed.

(* a fresh pass happens only when the id is absent: every earlier pass of it is more than ttl old *)
Lemma K_gate t s i fresh s' : K t s -> gate s i = (fresh, s') -> K t s'.
Proof.
  intros Hk. rewrite gate_eq. intros [= <- <-].
  destruct (tc_add_cases (cache s) i (clock s)) as [Ec|[-> ->]]; [|revert Hk; now apply K_core].
  pose proof (K_touch t s i Hk) as Ht. rewrite <- Ec in Ht.
  destruct (fst (tc_add (cache s) i (clock s))) eqn:F; [|revert Ht; now apply K_core].
  apply tc_add_true_iff_absent in F. destruct Ht as [T P N E A W S]. split; auto.
  - intros k a [[= <- <-]|Hin]; [|now apply A]. cbn. rewrite Ec. cbn.
    rewrite lookup_setk, Nat.eqb_refl, (k_ttl _ _ Hk). lia.
  - intros k. unfold passes_of. cbn [passes filter fst].
    destruct (Nat.eqb_spec k i) as [->|]; [|apply (k_sep _ _ Hk)]. cbn [map snd]. fold (passes_of i s).
    pose proof (k_sep _ _ Hk i) as S'. destruct (passes_of i s) as [|a l] eqn:El; [exact Logic.I|]. split; [|exact S'].
    assert (Hin : In a (passes_of i s)) by (rewrite El; now left).
    apply in_passes_of, (k_pass _ _ Hk) in Hin. now rewrite F in Hin.
Qed.

Lemma gate_busy s i fresh s' : gate s i = (fresh, s') -> busy s' = busy s.
Proof. rewrite gate_eq. now intros [= <- <-]. Qed.

Lemma gate_npasses s i fresh s' k :
  gate s i = (fresh, s') ->
  length (passes_of k s') = (length (passes_of k s) + if fresh && Nat.eqb k i then 1 else 0)%nat.
Proof.
  rewrite gate_eq. intros [= <- <-]. unfold passes_of; cbn.
  destruct (fst (tc_add (cache s) i (clock s))); cbn; [destruct (Nat.eqb k i); cbn|]; lia.
Qed.

Lemma count_ev_app f l1 l2 : count_ev f (l1 ++ l2) = (count_ev f l1 + count_ev f l2)%nat.
Proof. unfold count_ev. now rewrite filter_app, app_length. Qed.

Definition busy_is (i : id) (s : st) : nat :=
  match busy s with Some j => if Nat.eqb i j then 1%nat else 0%nat | None => 0%nat end.

(* from s0 to s, emitting out: every invocation of an id, and every delivery of it (a validator still
   blocked on it counts as one to come), is paid for by a pass of that id made on the way *)
Record J (t : Z) (s0 s : st) (out : list ev) : Prop := {
  j_K : K t s;
  j_inv : forall i, (count_ev (is_invoke i) out + length (passes_of i s0) <= length (passes_of i s))%nat;
  j_del : forall i, (count_ev (is_deliver i) out + busy_is i s + length (passes_of i s0)
                     <= length (passes_of i s) + busy_is i s0)%nat
}.

Lemma J_refl t s : K t s -> J t s s [].
Proof. intros H. split; [exact H| |]; intros i; cbn; lia. Qed.

Lemma J_trans t s0 s1 s2 e1 e2 : J t s0 s1 e1 -> J t s1 s2 e2 -> J t s0 s2 (e1 ++ e2).
Proof.
  intros [_ A1 B1] [H A2 B2]. split; [exact H| |]; intros i; rewrite count_ev_app.
  - specialize (A1 i). specialize (A2 i). lia.
  - specialize (B1 i). specialize (B2 i). lia.
Qed.

Lemma J_state t s0 s s' out :
  J t s0 s out -> K t s' -> passes s' = passes s -> busy s' = busy s \/ busy s' = None -> J t s0 s' out.
Proof.
  intros [_ A B] H Hp Hb. split; [exact H| |]; intros i; unfold passes_of; rewrite Hp; [apply A|].
  assert (Q : (busy_is i s' <= busy_is i s)%nat) by (unfold busy_is; destruct Hb as [-> | ->]; [apply le_n|apply Nat.le_0_l]).
  specialize (B i). unfold passes_of in B. lia.
Qed.

Definition with_qb (s : st) q b :=
  {| cache := cache s; clock := clock s; next_sweep := next_sweep s; queue := q; busy := b; passes := passes s |}.

Lemma J_qb t s0 s out q b : J t s0 s out -> b = busy s \/ b = None -> J t s0 (with_qb s q b) out.
Proof. intros Hj Hb. apply (J_state t s0 s); auto. apply (K_core t s); [reflexivity|apply Hj]. Qed.

Lemma J_emit t s0 s out evs :
  J t s0 s out -> (forall k, count_ev (is_invoke k) evs = 0%nat /\ count_ev (is_deliver k) evs = 0%nat) ->
  J t s0 s (out ++ evs).
Proof.
  intros [H A B] N. split; [exact H| |]; intros i; rewrite count_ev_app; destruct (N i) as [N1 N2]; rewrite ?N1, ?N2.
  - specialize (A i). lia.
  - specialize (B i). lia.
Qed.

(* markSeen of i, then events and a change of [queue] and [busy]: a fresh pass pays for one invocation
   of i and for one delivery of i or the worker blocking on i *)
Lemma J_gate {t s0 s out i fresh s2 s' evs} :
  J t s0 s out -> gate s i = (fresh, s2) -> core s' = core s2 ->
  (forall k, count_ev (is_invoke k) evs <= if fresh && Nat.eqb k i then 1 else 0)%nat ->
  (forall k, count_ev (is_deliver k) evs + busy_is k s' <= (if fresh && Nat.eqb k i then 1 else 0) + busy_is k s2)%nat ->
  J t s0 s' (out ++ evs).
Proof.
  intros [H A B] Eg Hc Hi Hd.
  assert (Hp : forall k, passes_of k s' = passes_of k s2) by (injection Hc as _ _ _ Hp; intros k; unfold passes_of; now rewrite Hp).
  split; [apply (K_core t s2 s' Hc), (K_gate t s i fresh s2 H Eg)| |]; intros k;
    rewrite count_ev_app, Hp, (gate_npasses s i fresh s2 k Eg).
  - specialize (A k). specialize (Hi k). lia.
  - specialize (B k). specialize (Hd k). unfold busy_is in Hd at 2. rewrite (gate_busy s i fresh s2 Eg) in Hd.
    fold (busy_is k s) in Hd. lia.
Qed.

(* closes the two side conditions of J_gate for a concrete list of events *)
Ltac tally i := let k := fresh "k" in intros k; unfold count_ev, busy_is; cbn; destruct (Nat.eqb k i); cbn; lia.

Lemma drain_J t c fuel : forall s0 s out,
  J t s0 s out -> J t s0 (fst (drain c fuel s out)) (snd (drain c fuel s out)).
Proof.
  induction fuel as [|f IH]; intros s0 s out Hj; cbn [drain]; [exact Hj|].
  destruct (busy s); [exact Hj|]. destruct (queue s) as [|i q']; [exact Hj|].
  pose proof (J_qb t s0 s out q' None Hj (or_intror eq_refl)) as J1.
  destruct (gate _ i) as [[] s2] eqn:Eg.
  - destruct (memb i (blocks c)); [|destruct (vlook i (verdict_of c)); apply IH];
      (apply (J_gate J1 Eg); [reflexivity|tally i|tally i]).
  - apply IH, (J_gate J1 Eg); [reflexivity|tally i|tally i].
Qed.

Lemma filter_seen_J t ids : forall s0 s keep out,
  J t s0 s out -> J t s0 (fst (fst (filter_seen s ids keep out))) (snd (filter_seen s ids keep out)).
Proof.
  induction ids as [|i ids IH]; intros s0 s keep out Hj; cbn [filter_seen]; [exact Hj|].
  destruct (tc_has (cache s) i (clock s)) as [seen c'] eqn:Eh.
  assert (Js : J t s0 (set_cache s c') out).
  { replace c' with (snd (tc_has (cache s) i (clock s))) by now rewrite Eh.
    apply (J_state t s0 s); auto. apply K_has, Hj. }
  destruct seen; apply IH; [apply J_emit; easy | exact Js].
Qed.

Lemma push_all_J t c ids : forall s0 s out,
  J t s0 s out -> J t s0 (fst (push_all c s ids out)) (snd (push_all c s ids out)).
Proof.
  induction ids as [|i ids IH]; intros s0 s out Hj; cbn [push_all]; [exact Hj|].
  destruct (has_val c).
  - destruct (Nat.ltb (length (queue s)) (qcap c)); apply IH.
    + apply (J_qb t s0 s out _ _ Hj). now left.
    + now apply J_emit.
  - destruct (gate s i) as [[] s'] eqn:Eg; apply IH.
    + apply (J_gate Hj Eg); [reflexivity|tally i|tally i].
    + rewrite <- (app_nil_r out). apply (J_gate Hj Eg); [reflexivity|tally i|tally i].
Qed.

Definition at_time (s : st) (now nxt : Z) : st :=
  {| cache := cache s; clock := now; next_sweep := nxt; queue := queue s; busy := busy s; passes := passes s |}.

(* [advance] lets time pass up to the next sweep instant or the target, and sweeps at that instant in the first case.
   An entry that a sweep removes has expired before the clock, so the passes it covered are more than ttl old *)
Lemma K_at_time t s now nxt : K t s -> clock s <= now < nxt -> K t (at_time s now nxt).
Proof.
  intros [T P N E A W S] Ht. split; cbn [at_time cache clock next_sweep passes]; auto; try lia.
  - intros i e El. specialize (E i e El). lia.
  - intros i a Hin. specialize (A i a Hin). destruct (lookup i (entries (cache s))); lia.
Qed.

Lemma K_sweep t s : K t s -> K t (set_cache s (tc_sweep (cache s) (clock s))).
Proof.
  intros [T P N E A W S]. split; cbn [set_cache cache clock next_sweep passes]; auto.
  - now apply NoDup_keys_filter.
  - intros i e. rewrite tc_sweep_spec by assumption. destruct (lookup i (entries (cache s))) as [e0|] eqn:El; [|discriminate].
    destruct (e0 <? clock s); [discriminate|]. intros [= <-]. exact (E i e0 El).
  - intros i a Hin. specialize (A i a Hin). rewrite tc_sweep_spec by assumption.
    destruct (lookup i (entries (cache s))) as [e0|]; [destruct (Z.ltb_spec e0 (clock s))|]; lia.
Qed.

Lemma advance_J t c fuel : forall s0 s out target,
  0 < interval c -> J t s0 s out -> clock s <= target -> J t s0 (advance c fuel s target) out.
Proof.
  induction fuel as [|f IH]; intros s0 s out target Hi Hj Ht; cbn [advance]; [exact Hj|].
  pose proof (j_K _ _ _ _ Hj) as Hk. pose proof (k_sw t s Hk) as W.
  destruct (Z.leb_spec (next_sweep s) target) as [Hs|Hs].
  - apply IH; [exact Hi | | exact Hs]. apply (J_state t s0 s); auto.
    apply (K_sweep t (at_time s (next_sweep s) (next_sweep s + interval c))), K_at_time; [exact Hk | lia].
  - apply (J_state t s0 s); auto. apply (K_at_time t s target (next_sweep s)); [exact Hk | lia].
Qed.

(* drain, filter_seen and push_all only ever append to their event accumulator: every branch either returns it,
   or calls on with it, or calls on with it extended.  Nothing below needs this (the J lemmas carry the accumulator
   along); it is what the three functions do with it. *)
Definition appends {X} (g : list ev -> X * list ev) : Prop := forall out, g out = (fst (g []), out ++ snd (g [])).

Lemma appends_ret {X} (x : X) : appends (fun out => (x, out)).
Proof. intros out. cbn. now rewrite app_nil_r. Qed.

Lemma appends_after {X} (g : list ev -> X * list ev) evs : appends g -> appends (fun out => g (out ++ evs)).
Proof. intros H out. rewrite H, (H ([] ++ evs)). cbn [fst snd]. now rewrite app_assoc. Qed.

Lemma drain_prefix c fuel : forall s, appends (drain c fuel s).
Proof.
  induction fuel as [|f IH]; intros s; cbn [drain]; [apply appends_ret|].
  destruct (busy s); [apply appends_ret|]. destruct (queue s) as [|i q']; [apply appends_ret|].
  destruct (gate _ i) as [[] s2].
  - destruct (memb i (blocks c)); [apply (appends_after (fun out => (_, out))), appends_ret|].
    destruct (vlook i (verdict_of c)); apply (appends_after (drain c f s2)), IH.
  - apply (appends_after (drain c f s2)), IH.
Qed.

Lemma filter_seen_prefix ids : forall s keep, appends (filter_seen s ids keep).
Proof.
  induction ids as [|i ids IH]; intros s keep; cbn [filter_seen]; [apply appends_ret|].
  destruct (tc_has (cache s) i (clock s)) as [[] c]; [apply (appends_after (filter_seen _ ids keep))|]; apply IH.
Qed.

Lemma push_all_prefix c ids : forall s, appends (push_all c s ids).
Proof.
  induction ids as [|i ids IH]; intros s; cbn [push_all]; [apply appends_ret|].
  destruct (has_val c).
  - destruct (Nat.ltb (length (queue s)) (qcap c)); [|apply (appends_after (push_all c s ids))]; apply IH.
  - destruct (gate s i) as [[] s']; [apply (appends_after (push_all c s' ids))|]; apply IH.
Qed.

Lemma filter_seen_busy ids : forall s keep out, busy (fst (fst (filter_seen s ids keep out))) = busy s.
Proof.
  induction ids as [|i ids IH]; intros s keep out; cbn [filter_seen]; [reflexivity|].
  destruct (tc_has (cache s) i (clock s)) as [seen c]. destruct seen; rewrite IH; reflexivity.
Qed.

(* the blocked validator returns: the delivery it may bring was counted while the worker was busy *)
Lemma J_release t s i v :
  K t s -> busy s = Some i ->
  J t s (with_qb s (queue s) None) (match v with VAccept => [EDeliver i] | _ => [] end).
Proof.
  intros Hk Eb. split; [revert Hk; now apply K_core| |]; intros k;
    change (passes_of k (with_qb s (queue s) None)) with (passes_of k s).
  - destruct v; cbn; lia.
  - unfold busy_is. rewrite Eb. destruct v; unfold count_ev; cbn; destruct (Nat.eqb k i); cbn; lia.
Qed.

Lemma step_J t c s o s' evs : 0 < interval c -> K t s -> step c s o = Some (s', evs) -> J t s s' evs.
Proof.
  intros Hi Hk H. pose proof (J_refl t s Hk) as J0. destruct o as [ids|v|i|d]; cbn [step] in H.
  - pose proof (filter_seen_J t ids s s [] [] J0) as F.
    destruct (filter_seen s ids [] []) as [[s1 keep] out1].
    pose proof (push_all_J t c keep s s1 out1 F) as P. destruct (push_all c s1 keep out1) as [s2 out2].
    pose proof (drain_J t c (S (length (queue s2))) s s2 out2 P) as D.
    destruct (drain c _ s2 out2). injection H as <- <-. exact D.
  - destruct (busy s) as [i|] eqn:Eb; [|discriminate].
    pose proof (drain_J t c (S (length (queue s))) s _ _ (J_release t s i v Hk Eb)) as D. unfold with_qb in D.
    destruct (drain c _ _ _). injection H as <- <-. exact D.
  - destruct (gate s i) as [[] s1] eqn:Eg; [destruct (has_val c); [destruct (vlook i (verdict_of c))|]|];
      injection H as <- <-; (apply (J_gate J0 Eg); [reflexivity|tally i|tally i]).
  - destruct (Z.ltb_spec d 0); [discriminate|].
    pose proof (advance_J t c (S (S (Z.to_nat (d / interval c)))) s s [] (clock s + d) Hi J0) as A.
    injection H as <- <-. apply A. lia.
Qed.

Lemma run_J t c l : forall s s' evs,
  0 < interval c -> K t s -> run c s l = Some (s', evs) -> J t s s' evs.
Proof.
  induction l as [|o l IH]; intros s s' evs Hi Hk H; cbn [run] in H.
  - injection H as <- <-. now apply J_refl.
  - destruct (step c s o) as [[s1 e1]|] eqn:Es; [|discriminate].
    destruct (run c s1 l) as [[s2 e2]|] eqn:Er; [|discriminate]. injection H as <- <-.
    pose proof (step_J t c s o s1 e1 Hi Hk Es) as J1. apply (J_trans t s s1 s2 e1 e2 J1), IH; auto. apply J1.
Qed.

(* C02 speaks of histories from [init]; each of its four statements reads one field of this J off *)
Lemma run_init_J sg t c l s evs :
  0 <= t -> 0 < interval c -> run c (init sg t c) l = Some (s, evs) -> J t (init sg t c) s evs.
Proof. intros Ht Hi. apply run_J; [exact Hi | now apply K_init]. Qed.

