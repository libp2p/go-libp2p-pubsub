(* C06 for FloodSubRouter.Publish and RandomSubRouter.Publish. *)
From Coq Require Import List Bool Arith.
Import ListNotations.
From PS Require Import Model.Router Model.Trace Model.SimpleRouters Proofs.SetMapProofs.

(* floodsub: exactly the topic peers with an outbound queue, minus the source and the author *)
Theorem fs_recipients_spec s m q :
  In q (fs_recipients s m) <-> In q (aget_l (sm_topic m) (sr_tmap s)) /\ sexcl m q = false /\ has_q s q = true.
Proof.
  unfold fs_recipients. rewrite filter_In, andb_true_iff, negb_true_iff. tauto.
Qed.

Theorem rs_no_topic s size m chosen r :
  aget (sm_topic m) (sr_tmap s) = None -> rs_recipients s size m chosen = Some r -> r = [].
Proof. unfold rs_recipients. intros ->. destruct chosen; [|discriminate]. intros H. inversion H. reflexivity. Qed.

(* randomsub: never the source, the author or a non-member; always every floodsub-only topic peer; all
   randomsub topic peers when there are at most RandomSubD of them, otherwise exactly
   min(max(RandomSubD, ceil(sqrt(size))), #eligible) distinct ones *)
Theorem rs_recipients_spec s size m chosen r tm :
  aget (sm_topic m) (sr_tmap s) = Some tm ->
  rs_recipients s size m chosen = Some r ->
  let rsp := filter (fun p => negb (is_fs s p)) (filter (fun p => negb (sexcl m p)) tm) in
  (forall q, In q r -> In q tm /\ sexcl m q = false /\ has_q s q = true)
  /\ (forall q, In q tm -> sexcl m q = false -> has_q s q = true -> is_fs s q = true -> In q r)
  /\ (length rsp <= RandomSubD -> forall q, In q rsp -> has_q s q = true -> In q r)
  /\ (RandomSubD < length rsp ->
        NoDup chosen /\ length chosen = Nat.min (Nat.max RandomSubD (csqrt size)) (length rsp)
        /\ (forall q, In q chosen -> In q rsp)
        /\ (forall q, In q r -> is_fs s q = false -> In q chosen)).
Proof.
  unfold rs_recipients. intros -> H. cbv zeta.
  set (rsp := filter (fun p => negb (is_fs s p)) _) in *.
  (* in both branches r = the queued ones among the floodsub-only candidates and a part X of rsp *)
  assert (exists X, r = filter (has_q s) (filter (is_fs s) (filter (fun p => negb (sexcl m p)) tm) ++ X) /\ (forall q, In q X -> In q rsp)
                    /\ if Nat.ltb RandomSubD (length rsp)
                       then X = chosen /\ nodup_b chosen = true /\ length chosen = rs_target size (length rsp) else X = rsp) as (X & -> & HX & HC).
  { destruct (Nat.ltb RandomSubD (length rsp)).
    - destruct (nodup_b chosen && _ && _) eqn:Hc; [|discriminate]. injection H as <-. rewrite !andb_true_iff, Nat.eqb_eq in Hc.
      exists chosen. repeat split; try tauto. intros q. now apply subset_In.
    - destruct chosen; [|discriminate]. injection H as <-. exists rsp. auto. }
  assert (Hr : forall q, In q rsp -> (In q tm /\ sexcl m q = false) /\ is_fs s q = false).
  { intros q Hq. apply filter_In in Hq as [Hq F]. apply filter_In in Hq as [T E]. apply negb_true_iff in F, E. auto. }
  split; [|split; [|split]].
  - intros q H0. apply filter_In in H0 as [H0 Hq]. apply in_app_or in H0 as [H0|H0]; [|destruct (Hr q (HX q H0)) as [[T E] _]; auto].
    apply filter_In in H0 as [H0 _]. apply filter_In in H0 as [T E]. apply negb_true_iff in E. auto.
  - intros q Hq He Hh Hf. rewrite filter_In, in_app_iff, !filter_In, negb_true_iff. tauto.
  - intros Hle q Hq Hh. apply Nat.ltb_ge in Hle. rewrite Hle in HC. subst X. rewrite filter_In, in_app_iff. tauto.
  - intros Hlt. apply Nat.ltb_lt in Hlt. rewrite Hlt in HC. destruct HC as (-> & Hn & Hl). repeat split; auto using nodup_b_NoDup.
    intros q Hq Hf. rewrite filter_In, in_app_iff, !filter_In in Hq. destruct Hq as [[[_ Hq]|Hq] _]; [congruence | exact Hq].
Qed.

(* a local-only publication goes to nobody under either router: no copy, no SEND_RPC in the trace, peers / topic map / joined set as they were
   (the message is marked seen) *)
Theorem local_only_sends_nothing rand size s m s' rc tr :
  srstep rand size s (RLocalOnly m) = Some (s', rc, tr) ->
  rc = [] /\ (forall q, ~ In (TSend q) tr) /\ sr_peers s' = sr_peers s /\ sr_tmap s' = sr_tmap s /\ sr_joined s' = sr_joined s.
Proof.
  cbn [srstep]. destruct (memb (sm_id m) (sr_seen s)); intros H; inversion H; subst; cbn.
  - split; [reflexivity|]. split; [|auto]. intros q Hq. destruct Hq as [Hq|Hq]; [discriminate Hq|exact Hq].
  - split; [reflexivity|]. split; [|auto]. intros q Hq. destruct Hq as [Hq|[Hq|Hq]]; [discriminate Hq|discriminate Hq|exact Hq].
Qed.
