(* the parameters in force after a step of the score model are a function of the parameters before it and the operation
   alone (any arithmetic) *)
From Coq Require Import List ZArith.
From PS Require Import Model.Router Model.Score Proofs.ListFacts.
Section G.
Variable A : arith.
Lemma prm_with_peer (s : sstate A) p f : prm A (with_peer A s p f) = prm A s.
Proof. unfold with_peer. destruct (aget p (pst A s)); reflexivity. Qed.
Lemma prm_mark_invalid s p t : prm A (mark_invalid A s p t) = prm A s.
Proof. apply prm_with_peer. Qed.
Lemma prm_mark_first s p t : prm A (mark_first A s p t) = prm A s.
Proof. unfold mark_first. destruct (tp_of A s t); [apply prm_with_peer | reflexivity]. Qed.
Lemma prm_mark_duplicate s p t v : prm A (mark_duplicate A s p t v) = prm A s.
Proof. unfold mark_duplicate. destruct (tp_of A s t); [apply prm_with_peer | reflexivity]. Qed.
Lemma prm_get_rec s i : prm A (fst (get_rec A s i)) = prm A s.
Proof. unfold get_rec. destruct (aget i (recs A s)); reflexivity. Qed.
Lemma prm_after_step s o s' : sstep A s o = Some s' -> prm A s' = prm_after A (prm A s) o.
Proof.
  intros H. destruct o; cbn [sstep prm_after] in H |- *.
  - destruct (aget p (pst A s)); injection H as <-; reflexivity.
  - destruct (aget p (pst A s)); [|injection H as <-; reflexivity].
    match type of H with (if ?b then _ else _) = _ => destruct b end; injection H as <-; reflexivity.
  - injection H as <-. apply prm_with_peer.
  - destruct (tp_of A s t); injection H as <-; [apply prm_with_peer | reflexivity].
  - injection H as <-. apply prm_get_rec.
  - pose proof (prm_get_rec (mark_first A s from t) i) as E. destruct (get_rec A (mark_first A s from t) i) as [s2 r]. cbn [fst] in E.
    destruct (dstat r); injection H as <-; try (rewrite E; apply prm_mark_first).
    apply fold_left_inv; [|cbn; rewrite E; apply prm_mark_first].
    intros st q _ <-. destruct (Nat.eqb q from); [reflexivity | apply prm_mark_duplicate].
  - pose proof (prm_get_rec s i) as E. destruct (get_rec A s i) as [s2 rc]. cbn [fst] in E.
    destruct r; [injection H as <-; apply prm_mark_invalid | injection H as <-; reflexivity ..| | |];
      destruct (dstat rc); injection H as <-; try exact E.
    apply fold_left_inv; [intros st q _ <-; apply prm_mark_invalid | rewrite prm_mark_invalid; exact E].
  - pose proof (prm_get_rec s i) as E. destruct (get_rec A s i) as [s2 rc]. cbn [fst] in E.
    destruct (memb from (dpeers rc)); [injection H as <-; exact E|].
    destruct (dstat rc); injection H as <-; try exact E.
    + rewrite prm_mark_duplicate. exact E.
    + rewrite prm_mark_invalid. exact E.
  - injection H as <-. apply prm_with_peer.
  - injection H as <-. reflexivity.
  - injection H as <-. reflexivity.
  - destruct (aget t (spTopics A (prm A s))); [|injection H as <-; reflexivity].
    match type of H with (if ?b then _ else _) = _ => destruct b end; injection H as <-; reflexivity.
  - injection H as <-. apply prm_with_peer.
  - destruct (d <? 0)%Z; [discriminate|]. injection H as <-. reflexivity.
Qed.
End G.
