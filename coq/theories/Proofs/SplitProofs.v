(* C11.  Content: [acc_flat a k], the kind-k elements of the fragments yielded so far followed by those of
   nextRPC, grows by exactly what a step appends ([step_flat]), whether or not the step yields; the stages of the
   slow path are folds of such steps ([list_stage], [ctl_stage], [per_msg_stage]).  Size: a fragment that is
   yielded was nextRPC, and nextRPC always fits or holds a single element ([step_good]).  sendRPC partitions the
   result of split. *)
From Coq Require Import List Bool NArith Arith Lia.
Import ListNotations.
From PS Require Import Model.Wire Model.Split Model.SplitContent Proofs.ListFacts.
Local Open Scope N_scope.

Definition acc_flat (a : acc) (k : kind) : list atom := flat (rev (fst a)) k ++ content (snd a) k.

Lemma flat_app l1 l2 k : flat (l1 ++ l2) k = flat l1 k ++ flat l2 k.
Proof. unfold flat. now rewrite map_app, concat_app. Qed.

Lemma forallb_nil_concat {A B C} (g : A -> list C) (f : A -> list B) l :
  (forall x, g x = [] -> f x = []) -> forallb (fun x => nil_b (g x)) l = true -> concat (map f l) = [].
Proof.
  intros Hf. induction l as [|x l IH]; cbn; [reflexivity|]. intros H. apply andb_prop in H as [H1 H2].
  rewrite (Hf x), (IH H2); [reflexivity|]. now destruct (g x).
Qed.

(* is_empty wants every field empty: the plain ones by cases, the IHAVE / IWANT / IDONTWANT lists may hold
   messages as long as none of them has an id *)
Lemma empty_content r k : is_empty r = true -> content r k = [].
Proof.
  unfold is_empty. destruct r as [[|? ?] [|? ?] ctl [?|] []]; cbn; rewrite ?andb_false_r; try discriminate.
  destruct ctl as [c|]; [|destruct k; reflexivity].
  destruct c as [ih iw [|? ?] [|? ?] idw [?|]]; unfold ctl_is_empty; cbn; rewrite ?andb_false_r; try discriminate.
  rewrite !andb_true_r, !andb_true_iff. intros [[Hih Hiw] Hidw].
  destruct k; cbn; try reflexivity.
  - now rewrite (forallb_nil_concat iw_ids iw_ids iw).
  - apply (forallb_nil_concat ih_ids ih_atoms ih); [|exact Hih]. intros h E. unfold ih_atoms. now rewrite E.
  - now rewrite (forallb_nil_concat iw_ids iw_ids idw).
Qed.

Lemma emit_flat out r k : flat (rev (emit out r)) k = flat (rev out) k ++ content r k.
Proof.
  unfold emit. destruct (is_empty r) eqn:E.
  - now rewrite (empty_content _ _ E), app_nil_r.
  - cbn [rev]. rewrite flat_app. unfold flat at 2. cbn. now rewrite app_nil_r.
Qed.

Lemma emit_acc_flat a k : flat (rev (emit (fst a) (snd a))) k = acc_flat a k.
Proof. apply emit_flat. Qed.

Lemma step_flat limit a cur' fresh k d :
  content cur' k = content (snd a) k ++ d -> content fresh k = d ->
  acc_flat (step limit a cur' fresh) k = acc_flat a k ++ d.
Proof.
  intros H1 H2. unfold step, acc_flat. destruct (limit <? size cur'); cbn [fst snd].
  - rewrite emit_flat, H2. reflexivity.
  - rewrite H1. now rewrite app_assoc.
Qed.

Definition is_ctl_kind (k : kind) : bool :=
  match k with KGraft | KPrune | KIwant | KIhave | KIdw | KExt => true | _ => false end.

Lemma content_ctl r k : is_ctl_kind k = true -> content r k = ctl_content (ctl_of r) k.
Proof. unfold ctl_of. destruct r as [? ? [c|] ? ?]; destruct k; cbn; intros; try discriminate; reflexivity. Qed.

Lemma content_upd_ctl r f k :
  content (upd_ctl r f) k = if is_ctl_kind k then ctl_content (f (ctl_of r)) k else content r k.
Proof. destruct k; reflexivity. Qed.

Lemma content_fresh_ctl f k :
  content (fresh_ctl f) k = if is_ctl_kind k then ctl_content (f ctl_empty) k else [].
Proof. destruct k; reflexivity. Qed.

Definition only (k0 k : kind) (d : list atom) : list atom :=
  match k0, k with
  | KSub, KSub | KPub, KPub | KGraft, KGraft | KPrune, KPrune | KIwant, KIwant | KIhave, KIhave
  | KIdw, KIdw | KExt, KExt | KPartial, KPartial | KTest, KTest => d
  | _, _ => []
  end.

Lemma only_nil K k : only K k [] = [].
Proof. destruct K, k; reflexivity. Qed.
Lemma only_app K k d1 d2 : only K k (d1 ++ d2) = only K k d1 ++ only K k d2.
Proof. destruct K, k; reflexivity. Qed.
Lemma only_ctl_other K k d : is_ctl_kind K = true -> is_ctl_kind k = false -> only K k d = [].
Proof. destruct K, k; try discriminate; reflexivity. Qed.

Lemma upd_ctl_add r f K d :
  is_ctl_kind K = true -> (forall k, ctl_content (f (ctl_of r)) k = ctl_content (ctl_of r) k ++ only K k d) ->
  forall k, content (upd_ctl r f) k = content r k ++ only K k d.
Proof.
  intros HK Hf k. rewrite content_upd_ctl. destruct (is_ctl_kind k) eqn:E.
  - now rewrite Hf, (content_ctl r) by exact E.
  - now rewrite only_ctl_other, app_nil_r.
Qed.

Lemma app_last_iw_snoc l w i : app_last_iw (l ++ [w]) i = l ++ [{| iw_ids := iw_ids w ++ [i] |}].
Proof. induction l as [|w0 l IH]; [reflexivity|]. cbn [app]. rewrite <- IH. now destruct l. Qed.

Lemma app_last_ih_snoc l h i :
  app_last_ih (l ++ [h]) i = l ++ [{| ih_ptr := ih_ptr h; ih_tlen := ih_tlen h; ih_ids := ih_ids h ++ [i] |}].
Proof. induction l as [|h0 l IH]; [reflexivity|]. cbn [app]. rewrite <- IH. now destruct l. Qed.

Lemma concat_iw_app_last l i : concat (map iw_ids (app_last_iw l i)) = concat (map iw_ids l) ++ [i].
Proof.
  destruct l as [|w l _] using rev_ind; [reflexivity|].
  rewrite app_last_iw_snoc, !map_app, !concat_app. cbn. now rewrite !app_nil_r, app_assoc.
Qed.

Definition last_ptr (l : list ihave) : option (option nat) :=
  match rev l with [] => None | h :: _ => Some (ih_ptr h) end.

Lemma last_ptr_snoc l h : last_ptr (l ++ [h]) = Some (ih_ptr h).
Proof. unfold last_ptr. now rewrite rev_app_distr. Qed.

Lemma last_ptr_inv l p : last_ptr l = Some p -> exists l0 h, l = l0 ++ [h] /\ ih_ptr h = p.
Proof.
  unfold last_ptr. destruct (rev l) as [|h r] eqn:E; [discriminate|]. intros [= <-].
  exists (rev r), h. split; [|reflexivity]. now rewrite <- (rev_involutive l), E.
Qed.

Lemma last_ptr_app_last l i p : last_ptr l = Some p -> last_ptr (app_last_ih l i) = Some p.
Proof. intros (l0 & h & -> & <-)%last_ptr_inv. now rewrite app_last_ih_snoc, last_ptr_snoc. Qed.

Lemma concat_ih_app_last l i p :
  last_ptr l = Some p -> concat (map ih_atoms (app_last_ih l i)) = concat (map ih_atoms l) ++ [AIhave p i].
Proof.
  intros (l0 & h & -> & <-)%last_ptr_inv. rewrite app_last_ih_snoc, !map_app, !concat_app.
  unfold ih_atoms; cbn. now rewrite map_app, !app_nil_r, <- app_assoc.
Qed.

(* partial, test and the control shell are written into nextRPC without looking at what is there: their content
   equations need the field still unset, which the stages before them ensure *)
Definition no_single (r : rpc) : Prop := r_ctl r = None /\ r_partial r = None /\ r_test r = false.

Lemma step_shape (P : rpc -> Prop) limit a cur' fresh :
  P cur' -> P fresh -> P (snd (step limit a cur' fresh)).
Proof. intros H1 H2. unfold step. destruct (limit <? size cur'); assumption. Qed.

(* a stage that appends the elements of a list one by one, all of kind K; I: what the stage relies on in nextRPC *)
Lemma list_stage limit K (A : Type) (inj : A -> atom) (I : rpc -> Prop) (mk : acc -> A -> rpc) (one : A -> rpc) l :
  (forall a x, I (snd a) -> I (mk a x)) -> (forall x, I (one x)) ->
  (forall a x k, I (snd a) -> content (mk a x) k = content (snd a) k ++ only K k [inj x]) ->
  (forall x k, content (one x) k = only K k [inj x]) ->
  forall a k, I (snd a) ->
  acc_flat (fold_left (fun a x => step limit a (mk a x) (one x)) l a) k = acc_flat a k ++ only K k (map inj l).
Proof.
  intros Imk Ione Hmk Hone. induction l as [|x l IH]; intros a k Ia; cbn [fold_left map].
  - now rewrite only_nil, app_nil_r.
  - rewrite IH by (apply step_shape; auto). rewrite (step_flat _ _ _ _ _ (only K k [inj x])) by auto.
    now rewrite <- app_assoc, <- only_app.
Qed.

Lemma st_subs_flat limit subs a k : acc_flat (st_subs limit a subs) k = acc_flat a k ++ only KSub k (map ASub subs).
Proof.
  unfold st_subs. apply (list_stage _ _ _ _ (fun _ => True)); auto.
  intros a0 s k0 _. destruct k0; cbn; rewrite ?app_nil_r, ?map_app; reflexivity.
Qed.

Lemma st_subs_shape limit subs a : no_single (snd a) -> no_single (snd (st_subs limit a subs)).
Proof.
  unfold st_subs. apply (fold_left_inv (fun a => no_single (snd a))). intros a0 x _ (A & B & C). apply step_shape; repeat split; assumption.
Qed.

Lemma st_partial_flat limit p a k :
  r_partial (snd a) = None ->
  acc_flat (st_partial limit a p) k = acc_flat a k ++ only KPartial k (match p with Some x => [APartial x] | None => [] end).
Proof.
  intros Hn. destruct p as [x|]; cbn [st_partial].
  - apply step_flat; destruct k; cbn; rewrite ?Hn, ?app_nil_r; reflexivity.
  - now rewrite only_nil, app_nil_r.
Qed.

Lemma st_partial_shape limit p a :
  r_ctl (snd a) = None /\ r_test (snd a) = false ->
  r_ctl (snd (st_partial limit a p)) = None /\ r_test (snd (st_partial limit a p)) = false.
Proof.
  intros [A B]. destruct p as [x|]; cbn [st_partial]; [|auto].
  apply (step_shape (fun r => r_ctl r = None /\ r_test r = false)); cbn; auto.
Qed.

Lemma st_test_flat limit t a k :
  r_test (snd a) = false ->
  acc_flat (st_test limit a t) k = acc_flat a k ++ only KTest k (if t then [ATest] else []).
Proof.
  intros Hn. destruct t; cbn [st_test].
  - apply step_flat; destruct k; cbn; rewrite ?Hn, ?app_nil_r; reflexivity.
  - now rewrite only_nil, app_nil_r.
Qed.

Lemma st_test_shape limit t a : r_ctl (snd a) = None -> r_ctl (snd (st_test limit a t)) = None.
Proof. intros A. destruct t; cbn [st_test]; [|auto]. apply (step_shape (fun r => r_ctl r = None)); cbn; auto. Qed.

Lemma st_shell_flat limit a k : r_ctl (snd a) = None -> acc_flat (st_shell limit a) k = acc_flat a k.
Proof.
  intros Hn. unfold st_shell. rewrite Hn.
  rewrite (step_flat _ _ _ _ _ []); [now rewrite app_nil_r| |destruct k; reflexivity].
  destruct k; cbn; rewrite ?Hn, ?app_nil_r; reflexivity.
Qed.

Lemma st_shell_shape limit a : r_ctl (snd a) = None -> r_ctl (snd (st_shell limit a)) = Some ctl_empty.
Proof. intros Hn. unfold st_shell. rewrite Hn. apply (step_shape (fun r => r_ctl r = Some ctl_empty)); reflexivity. Qed.

Lemma st_ext_flat limit e a k :
  c_ext (ctl_of (snd a)) = None ->
  acc_flat (st_ext limit a e) k = acc_flat a k ++ only KExt k (match e with Some x => [AExt x] | None => [] end).
Proof.
  intros Hn. destruct e as [x|]; cbn [st_ext]; [|now rewrite only_nil, app_nil_r].
  apply step_flat; [|destruct k; reflexivity]. apply upd_ctl_add; [reflexivity|].
  intros k1. destruct k1; cbn; rewrite ?Hn, ?app_nil_r; reflexivity.
Qed.

(* a stage that appends the elements of a list to one field of the control part *)
Lemma ctl_stage limit K (A : Type) (inj : A -> atom) (addf : control -> A -> control) (one : A -> control -> control) l a k :
  is_ctl_kind K = true ->
  (forall c x k, ctl_content (addf c x) k = ctl_content c k ++ only K k [inj x]) ->
  (forall x k, ctl_content (one x ctl_empty) k = only K k [inj x]) ->
  acc_flat (fold_left (fun a x => step limit a (upd_ctl (snd a) (fun c => addf c x)) (fresh_ctl (one x))) l a) k
  = acc_flat a k ++ only K k (map inj l).
Proof.
  intros HK Hadd Hone. apply (list_stage _ _ _ _ (fun _ => True)); auto.
  - intros a0 x k0 _. apply upd_ctl_add; [exact HK | intros; apply Hadd].
  - intros x k0. rewrite content_fresh_ctl, Hone. destruct (is_ctl_kind k0) eqn:E; [reflexivity | now rewrite only_ctl_other].
Qed.

Lemma st_graft_flat limit l a k : acc_flat (st_graft limit a l) k = acc_flat a k ++ only KGraft k (map AGraft l).
Proof. apply ctl_stage; [reflexivity | intros c x k1 | intros x k1]; destruct k1; cbn; rewrite ?app_nil_r, ?map_app; reflexivity. Qed.
Lemma st_prune_flat limit l a k : acc_flat (st_prune limit a l) k = acc_flat a k ++ only KPrune k (map APrune l).
Proof. apply ctl_stage; [reflexivity | intros c x k1 | intros x k1]; destruct k1; cbn; rewrite ?app_nil_r, ?map_app; reflexivity. Qed.
Lemma iw_ids_stage_flat limit ids a k : acc_flat (iw_ids_stage limit a ids) k = acc_flat a k ++ only KIwant k (map AIwant ids).
Proof.
  apply ctl_stage; [reflexivity | intros c x k1 | intros x k1]; destruct k1; cbn; rewrite ?app_nil_r, ?concat_iw_app_last, ?map_app; reflexivity.
Qed.
Lemma idw_ids_stage_flat limit ids a k : acc_flat (idw_ids_stage limit a ids) k = acc_flat a k ++ only KIdw k (map AIdw ids).
Proof.
  apply ctl_stage; [reflexivity | intros c x k1 | intros x k1]; destruct k1; cbn; rewrite ?app_nil_r, ?concat_iw_app_last, ?map_app; reflexivity.
Qed.

(* a step that only adds a header (an IWANT / IDONTWANT / IHAVE without ids): no content *)
Lemma hdr_step_flat limit a f g :
  (forall k, ctl_content (f (ctl_of (snd a))) k = ctl_content (ctl_of (snd a)) k) -> (forall k, ctl_content (g ctl_empty) k = []) ->
  forall k, acc_flat (step limit a (upd_ctl (snd a) f) (fresh_ctl g)) k = acc_flat a k.
Proof.
  intros Hf H0 k. rewrite (step_flat _ _ _ _ _ []); [apply app_nil_r | |].
  - rewrite content_upd_ctl, app_nil_r. destruct (is_ctl_kind k) eqn:E; [|reflexivity]. now rewrite Hf, content_ctl.
  - rewrite content_fresh_ctl, H0. now destruct (is_ctl_kind k).
Qed.

(* IWANT / IDONTWANT / IHAVE: message by message *)
Lemma per_msg_stage K (A : Type) (atoms_of : A -> list atom) (st : acc -> A -> acc) l :
  (forall a x k, acc_flat (st a x) k = acc_flat a k ++ only K k (atoms_of x)) ->
  forall a k, acc_flat (fold_left st l a) k = acc_flat a k ++ only K k (concat (map atoms_of l)).
Proof.
  intros H. induction l as [|x l IH]; intros a k; cbn [fold_left map concat].
  - now rewrite only_nil, app_nil_r.
  - now rewrite IH, H, only_app, app_assoc.
Qed.

Lemma st_iwant_flat limit l a k :
  acc_flat (st_iwant limit a l) k = acc_flat a k ++ only KIwant k (map AIwant (concat (map iw_ids l))).
Proof.
  rewrite concat_map, map_map. apply (per_msg_stage KIwant). clear. intros a w k. rewrite iw_ids_stage_flat. f_equal.
  destruct (c_iwant (ctl_of (snd a))) eqn:Ec; [|reflexivity].
  apply hdr_step_flat; intros k1; destruct k1; cbn; rewrite ?Ec; reflexivity.
Qed.

Lemma st_idw_flat limit l a k :
  acc_flat (st_idw limit a l) k = acc_flat a k ++ only KIdw k (map AIdw (concat (map iw_ids l))).
Proof.
  rewrite concat_map, map_map. apply (per_msg_stage KIdw). clear. intros a w k. rewrite idw_ids_stage_flat. f_equal.
  destruct (c_idw (ctl_of (snd a))) eqn:Ec; [|reflexivity].
  apply hdr_step_flat; intros k1; destruct k1; cbn; rewrite ?Ec; reflexivity.
Qed.

(* IHAVE: the ids go to the last IHAVE of nextRPC, whose topic pointer is the current one *)
Lemma ih_ids_stage_flat limit p tlen ids a k :
  last_ptr (c_ihave (ctl_of (snd a))) = Some p ->
  acc_flat (ih_ids_stage limit a p tlen ids) k = acc_flat a k ++ only KIhave k (map (AIhave p) ids).
Proof.
  unfold ih_ids_stage. apply (list_stage _ _ _ _ (fun r => last_ptr (c_ihave (ctl_of r)) = Some p)); auto; [| |intros x k0; destruct k0; reflexivity].
  - intros a0 i HL. apply last_ptr_app_last, HL.
  - intros a0 i k0 HL. apply upd_ctl_add; [reflexivity|]. intros k1. destruct k1; cbn; rewrite ?app_nil_r; try reflexivity.
    apply (concat_ih_app_last _ i p HL).
Qed.

Lemma ptr_eqb_eq a b : ptr_eqb a b = true -> a = b.
Proof.
  destruct a, b; cbn; try discriminate; auto. intros H. apply Nat.eqb_eq in H. now subst.
Qed.

Lemma st_ihave_flat limit l a k :
  acc_flat (st_ihave limit a l) k = acc_flat a k ++ only KIhave k (concat (map ih_atoms l)).
Proof.
  apply (per_msg_stage KIhave). clear. intros a h k.
  set (need := match rev (c_ihave (ctl_of (snd a))) with [] => true | lasth :: _ => negb (ptr_eqb (ih_ptr lasth) (ih_ptr h)) end).
  destruct need eqn:En.
  - rewrite ih_ids_stage_flat.
    + f_equal. apply hdr_step_flat; intros k1; destruct k1; cbn; rewrite ?map_app, ?concat_app, ?app_nil_r; reflexivity.
    + apply (step_shape (fun r => last_ptr (c_ihave (ctl_of r)) = Some (ih_ptr h))); [|reflexivity].
      unfold upd_ctl, ctl_of at 1. cbn [r_ctl set_ctl c_ihave c_set_ihave]. now rewrite last_ptr_snoc.
  - apply ih_ids_stage_flat. unfold last_ptr. subst need.
    destruct (rev (c_ihave (ctl_of (snd a)))) as [|lasth r]; [discriminate|].
    apply negb_false_iff in En. now rewrite (ptr_eqb_eq _ _ En).
Qed.

Lemma pack_pub_flat limit ms : forall cur cursz out k,
  flat (rev (pack_pub limit ms cur cursz out)) k
  = flat (rev out) k ++ only KPub k (map APub (cur ++ ms)).
Proof.
  induction ms as [|m ms IH]; intros cur cursz out k; cbn [pack_pub].
  - rewrite app_nil_r. destruct cur as [|c0 cur'].
    + destruct k; cbn; now rewrite app_nil_r.
    + rewrite emit_flat. destruct k; reflexivity.
  - destruct (limit <? cursz + emb (msize m)).
    + rewrite IH, emit_flat, <- app_assoc.
      destruct k; cbn; rewrite ?app_nil_r; try reflexivity. rewrite map_app. reflexivity.
    + rewrite IH, <- app_assoc. reflexivity.
Qed.

Lemma st_control_flat limit oc a k :
  r_ctl (snd a) = None ->
  acc_flat (st_control limit a oc) k
  = acc_flat a k ++ (if is_ctl_kind k then match oc with Some c => ctl_content c k | None => [] end else []).
Proof.
  intros Hn. destruct oc as [c|]; cbn [st_control].
  2:{ destruct k; cbn; now rewrite app_nil_r. }
  rewrite st_idw_flat, st_ihave_flat, st_iwant_flat, st_prune_flat, st_graft_flat.
  rewrite st_ext_flat.
  2:{ pose proof (st_shell_shape limit a Hn) as S. unfold ctl_of. now rewrite S. }
  rewrite st_shell_flat by exact Hn.
  rewrite <- !app_assoc. f_equal.
  destruct k; cbn; rewrite ?app_nil_r; reflexivity.
Qed.

Theorem split_content limit r k : flat (split limit r) k = content r k.
Proof.
  unfold split.
  set (rest := {| r_subs := r_subs r; r_pub := []; r_ctl := r_ctl r; r_partial := r_partial r; r_test := r_test r |}).
  pose proof (pack_pub_flat limit (r_pub r) [] 0 [] k) as P. cbn [app rev] in P.
  destruct (size rest <? limit).
  - rewrite emit_flat, P. destruct k; cbn; rewrite ?app_nil_r; reflexivity.
  - set (a0 := (pack_pub limit (r_pub r) [] 0 [], rpc_empty)).
    assert (S1 : no_single (snd (st_subs limit a0 (r_subs r)))) by (apply st_subs_shape; repeat split).
    destruct S1 as (C1 & P1 & T1).
    assert (S2 := st_partial_shape limit (r_partial r) _ (conj C1 T1)). destruct S2 as [C2 T2].
    assert (C3 := st_test_shape limit (r_test r) _ C2).
    rewrite emit_acc_flat.
    rewrite st_control_flat by exact C3.
    rewrite st_test_flat by exact T2.
    rewrite st_partial_flat by exact P1.
    rewrite st_subs_flat.
    unfold acc_flat, a0. cbn [fst snd]. rewrite P.
    destruct k; cbn; rewrite ?app_nil_r; reflexivity.
Qed.

Definition fits (limit : N) (r : rpc) : Prop := size r <= limit \/ (atoms r <= 1)%nat.
Definition good (limit : N) (r : rpc) : Prop := is_empty r = false /\ fits limit r.

Lemma emit_good limit out r : Forall (good limit) out -> fits limit r -> Forall (good limit) (emit out r).
Proof. intros H F. unfold emit. destruct (is_empty r) eqn:E; [exact H|]. constructor; [split; auto|exact H]. Qed.

Definition acc_good limit (a : acc) : Prop := Forall (good limit) (fst a) /\ fits limit (snd a).

Lemma emit_acc_good limit a : acc_good limit a -> Forall (good limit) (emit (fst a) (snd a)).
Proof. intros [G F]. now apply emit_good. Qed.

(* whatever is appended: the fragment yielded was nextRPC, which fitted or was a single element, and the new nextRPC is one *)
Lemma step_good limit a cur' fresh :
  (atoms fresh <= 1)%nat -> acc_good limit a -> acc_good limit (step limit a cur' fresh).
Proof.
  intros Hf [H F]. unfold step. destruct (N.ltb_spec limit (size cur')); split; cbn [fst snd]; auto using emit_good.
  - right. exact Hf.
  - left. assumption.
Qed.

(* a stage keeps acc_good: a fold by fold_left_inv, a step by step_good since its fresh RPC holds one element *)
Ltac steps := repeat first [assumption | apply step_good; [cbn; lia|] | apply fold_left_inv; [intros|]].

Lemma st_subs_good limit l a : acc_good limit a -> acc_good limit (st_subs limit a l).
Proof. intros G. unfold st_subs. steps. Qed.
Lemma st_partial_good limit p a : acc_good limit a -> acc_good limit (st_partial limit a p).
Proof. intros G. destruct p; cbn [st_partial]; steps. Qed.
Lemma st_test_good limit t a : acc_good limit a -> acc_good limit (st_test limit a t).
Proof. intros G. destruct t; cbn [st_test]; steps. Qed.
Lemma st_shell_good limit a : acc_good limit a -> acc_good limit (st_shell limit a).
Proof. intros G. unfold st_shell. destruct (r_ctl (snd a)); steps. Qed.
Lemma st_ext_good limit e a : acc_good limit a -> acc_good limit (st_ext limit a e).
Proof. intros G. destruct e; cbn [st_ext]; steps. Qed.
Lemma st_graft_good limit l a : acc_good limit a -> acc_good limit (st_graft limit a l).
Proof. intros G. unfold st_graft. steps. Qed.
Lemma st_prune_good limit l a : acc_good limit a -> acc_good limit (st_prune limit a l).
Proof. intros G. unfold st_prune. steps. Qed.
Lemma st_iwant_good limit l a : acc_good limit a -> acc_good limit (st_iwant limit a l).
Proof. intros G. unfold st_iwant, iw_ids_stage. steps. destruct (c_iwant _); steps. Qed.
Lemma st_idw_good limit l a : acc_good limit a -> acc_good limit (st_idw limit a l).
Proof. intros G. unfold st_idw, idw_ids_stage. steps. destruct (c_idw _); steps. Qed.
Lemma st_ihave_good limit l a : acc_good limit a -> acc_good limit (st_ihave limit a l).
Proof. intros G. unfold st_ihave, ih_ids_stage. steps. destruct (rev _) as [|lasth ?]; [|destruct (negb _)]; steps. Qed.
Lemma st_control_good limit oc a : acc_good limit a -> acc_good limit (st_control limit a oc).
Proof.
  intros G. destruct oc as [c|]; cbn [st_control]; [|exact G].
  apply st_idw_good, st_ihave_good, st_iwant_good, st_prune_good, st_graft_good, st_ext_good, st_shell_good, G.
Qed.

Lemma sumN_app {A} (f : A -> N) l1 l2 : sumN f (l1 ++ l2) = sumN f l1 + sumN f l2.
Proof. unfold sumN. induction l1 as [|x l1 IH]; cbn; [reflexivity|]. rewrite IH. lia. Qed.

Lemma size_pub_rpc ms : size (pub_rpc ms) = sumN (fun m => emb (msize m)) ms.
Proof. unfold size, pub_rpc. cbn [r_subs r_pub r_ctl r_partial r_test]. unfold sumN at 1. cbn [fold_right]. lia. Qed.
Lemma atoms_pub_rpc ms : atoms (pub_rpc ms) = length ms.
Proof. unfold atoms. cbn. now rewrite app_nil_r, map_length. Qed.

Lemma fits_pub_rpc limit ms : sumN (fun m => emb (msize m)) ms <= limit \/ (length ms <= 1)%nat -> fits limit (pub_rpc ms).
Proof. unfold fits. now rewrite size_pub_rpc, atoms_pub_rpc. Qed.

Lemma pack_pub_good limit ms : forall cur cursz out,
  Forall (good limit) out -> cursz = sumN (fun m => emb (msize m)) cur ->
  (cursz <= limit \/ (length cur <= 1)%nat) ->
  Forall (good limit) (pack_pub limit ms cur cursz out).
Proof.
  induction ms as [|m ms IH]; intros cur cursz out G -> F; cbn [pack_pub].
  - destruct cur as [|c0 cur']; [exact G | apply emit_good, fits_pub_rpc; assumption].
  - destruct (N.ltb_spec limit (sumN (fun m => emb (msize m)) cur + emb (msize m))).
    + apply IH; [apply emit_good, fits_pub_rpc; assumption | cbn; lia | right; cbn; lia].
    + apply IH; [exact G | | left; lia]. rewrite sumN_app. cbn. lia.
Qed.

Theorem split_good limit r : Forall (good limit) (split limit r).
Proof.
  unfold split.
  assert (P : Forall (good limit) (pack_pub limit (r_pub r) [] 0 [])).
  { apply pack_pub_good; [constructor|reflexivity|left; lia]. }
  set (rest := {| r_subs := r_subs r; r_pub := []; r_ctl := r_ctl r; r_partial := r_partial r; r_test := r_test r |}).
  destruct (N.ltb_spec (size rest) limit).
  - apply Forall_rev. apply emit_good; [exact P|]. left. lia.
  - apply Forall_rev, emit_acc_good, st_control_good, st_test_good, st_partial_good, st_subs_good.
    split; [exact P|]. right. cbn. lia.
Qed.

Theorem split_no_empty limit r f : In f (split limit r) -> is_empty f = false.
Proof. intros H. pose proof (split_good limit r) as G. rewrite Forall_forall in G. apply (G f H). Qed.

Theorem split_fits limit r f : In f (split limit r) -> size f <= limit \/ (atoms f <= 1)%nat.
Proof. intros H. pose proof (split_good limit r) as G. rewrite Forall_forall in G. apply (G f H). Qed.

Theorem send_never_queues_oversize max r f : In f (fst (send_rpc max r)) -> size f <= max.
Proof.
  unfold send_rpc. destruct (N.ltb_spec (size r) max); [intros [<-|[]]; lia|].
  rewrite partition_filter. cbn [fst]. intros [_ Hf]%filter_In. apply N.leb_le, Hf.
Qed.

Theorem send_drops_only_single_oversize max r f :
  In f (snd (send_rpc max r)) -> max < size f /\ (atoms f <= 1)%nat /\ is_empty f = false.
Proof.
  unfold send_rpc. destruct (N.ltb_spec (size r) max); [intros []|].
  rewrite partition_filter. cbn [snd]. intros [Hin Hf]%filter_In. apply negb_true_iff, N.leb_gt in Hf.
  split; [exact Hf|]. split; [|eapply split_no_empty; eauto]. destruct (split_fits _ _ _ Hin); [lia | assumption].
Qed.

Theorem send_direct_when_small max r : size r < max -> send_rpc max r = ([r], []).
Proof. intros H. unfold send_rpc. destruct (N.ltb_spec (size r) max); [reflexivity|lia]. Qed.

Theorem send_content max r k x :
  In x (content r k) -> exists f, (In f (fst (send_rpc max r)) \/ In f (snd (send_rpc max r))) /\ In x (content f k).
Proof.
  intros Hx. unfold send_rpc. destruct (size r <? max); [exists r; cbn; auto|].
  rewrite <- (split_content max r k) in Hx. unfold flat in Hx. apply in_concat in Hx as (l & Hl & Hx).
  apply in_map_iff in Hl as (f & <- & Hf).
  exists f. split; [|exact Hx]. destruct (partition _ (split max r)) as [q d] eqn:E. apply (elements_in_partition _ _ E), Hf.
Qed.
