(* C13: reclamation after a full disconnect plus the retention periods.  C16: blacklisting. *)
From Coq Require Import List Bool Arith Lia.
Import ListNotations.
From PS Require Import Model.Lifecycle Proofs.ListFacts Proofs.LifecycleDep.

Fixpoint lrun_guarded (v : pv) (l : list lev) : bool :=
  match l with [] => true | e :: l' => guarded v e && lrun_guarded (lstep v e) l' end.

Lemma dep_run l : forall v, depb v = true -> lrun_guarded v l = true -> depb (lrun v l) = true.
Proof.
  induction l as [|e l IH]; intros v Hd Hg; [exact Hd|].
  cbn in Hg. apply andb_true_iff in Hg as [H1 H2]. apply IH; [apply dep_step; assumption | exact H2].
Qed.

(* the peer goes away for good: its inbound stream closes and the outbound side is declared dead with the
   connection gone; then the timers run *)
Definition goodbye : list lev := [LInDown; LDead false].
Fixpoint ticks (n : nat) : list lev := match n with O => [] | S k => LHeartbeat :: LRefresh :: ticks k end.

(* a peer of which nothing but timers (and the blacklist entry) is left *)
Definition gone (sc bo : option nat) (c : bool) (pr : option nat) (bl : bool) : pv :=
  {| v_queue := false; v_out := false; v_in := false; v_topics := false; v_mesh := false; v_fanout := false;
     v_bufs := false; v_prot := false; v_ext_peer := false; v_ext_sent := false; v_gater := false;
     v_score := sc; v_backoff := bo; v_counters := c; v_promises := pr; v_blacklisted := bl |}.

(* after the goodbye nothing but timers is left, given the invariants: with a queue the outbound side is
   torn down by [out_down], without one there was nothing on it *)
Lemma goodbye_gone v : depb v = true ->
  lrun v goodbye = gone (if v_out v then Some RETAIN else v_score v) (v_backoff v) (v_counters v) (v_promises v)
                        (v_blacklisted v).
Proof.
  intros H. destruct (v_queue v) eqn:Q.
  - destruct v; cbn in *; now subst.
  - destruct (dep_no_queue v H Q) as (? & ? & ? & ? & ? & ?). destruct v; cbn in *; now subst.
Qed.

Definition within (k : nat) (o : option nat) : Prop := match o with Some j => j <= k | None => True end.
Definition bounded (v : pv) : Prop :=
  within RETAIN (v_score v) /\ within RETAIN (v_backoff v) /\ within RETAIN (v_promises v).

Lemma within_dec k o : within k o -> within (pred k) (dec o).
Proof. destruct o as [[|j]|]; cbn; lia. Qed.
Lemma within_dec_same k o : within k o -> within k (dec o).
Proof. destruct o as [[|j]|]; cbn; lia. Qed.
Lemma within_0_dec o : within 0 o -> dec o = None.
Proof. destruct o as [[|j]|]; cbn; [reflexivity | lia | reflexivity]. Qed.

Lemma bounded_step v e : bounded v -> bounded (lstep v e).
Proof.
  unfold bounded. handler_cases v e; intros (A & B & C); repeat split; auto using Nat.le_0_l, within_dec_same.
Qed.
Lemma bounded_run l v : bounded v -> bounded (lrun v l).
Proof. apply fold_left_inv. intros w e _. apply bounded_step. Qed.

(* timers alone on a peer that is gone: each tick takes one off every timer *)
Lemma ticks_gone n : forall k sc bo c pr bl,
  within k sc -> within k bo -> within k pr -> k < n -> reclaimed (lrun (gone sc bo c pr bl) (ticks n)) = true.
Proof.
  induction n as [|n IH]; intros k sc bo c pr bl Hs Hb Hp Hk; [lia|].
  change (reclaimed (lrun (gone (dec sc) (dec bo) false (dec pr) bl) (ticks n)) = true).
  destruct n as [|n].
  - replace k with 0 in * by lia. now rewrite !within_0_dec.
  - apply (IH (pred k)); try apply within_dec; auto; lia.
Qed.

(* once the dependency discipline and the timer bounds hold, a goodbye followed by the retention periods leaves nothing *)
Theorem reclaimed_after_goodbye v n :
  depb v = true -> bounded v -> RETAIN < n -> reclaimed (lrun (lrun v goodbye) (ticks n)) = true.
Proof.
  intros Hd Hb Hn. apply (bounded_run goodbye) in Hb. rewrite goodbye_gone in * by exact Hd.
  destruct Hb as (A & B & C). now apply (ticks_gone n RETAIN).
Qed.

(* without the guard the statement is false: a GRAFT arriving on an inbound stream that outlives the outbound
   side puts the peer into a mesh (and protects its connection) with nothing left to take it out again *)
Theorem reclaim_refuted_graft_without_outbound :
  exists l n, RETAIN < n /\ reclaimed (lrun (lrun (lrun pv0 l) goodbye) (ticks n)) = false.
Proof. exists [LNotify; LOutUp; LInUp; LDead false; LGraft true], 5. split; [unfold RETAIN; lia | vm_compute; reflexivity]. Qed.

(* BlacklistPeer at any point of the lifecycle where the dependency discipline holds: at that moment the queue is closed and dropped and the peer is in no
   mesh or fanout; pending buffers and protections are gone with them.  The topic lists are cleared only where there
   was a queue (pubsub.go calls clearPeerFromTopicsState only when p.peers[pid] exists) *)
Theorem blacklist_api_clears v :
  let w := lstep v (LBlacklist true) in
  v_blacklisted w = true
  /\ (depb v = true ->
      v_queue w = false /\ v_out w = false /\ v_topics w = (v_topics v && negb (v_queue v)) /\ v_mesh w = false /\ v_fanout w = false
      /\ v_bufs w = false /\ v_prot w = false).
Proof.
  split; [reflexivity|]. intros H. destruct (v_queue v) eqn:Q.
  - destruct v; cbn in *; subst; cbn. now rewrite andb_false_r.
  - destruct (dep_no_queue v H Q) as (? & ? & ? & ? & ? & ?). destruct v; cbn in *; subst; cbn. now rewrite andb_true_r.
Qed.

(* from the moment a peer is blacklisted (by either route) and has no established outbound stream, no outbound
   stream to it is ever established again: queues are not created for it and a stream that completes later is refused *)
Lemma blacklisted_no_outbound_step v e :
  v_blacklisted v = true -> v_out v = false -> v_out (lstep v e) = false /\ v_blacklisted (lstep v e) = true.
Proof. handler_cases v e; intros; subst; auto. Qed.

Theorem blacklisted_no_outbound l v :
  v_blacklisted v = true -> v_out v = false -> v_out (lrun v l) = false /\ v_blacklisted (lrun v l) = true.
Proof.
  intros Hb Ho. apply (fold_left_inv (fun w => v_out w = false /\ v_blacklisted w = true)); [|now split].
  intros w e _ [Ho' Hb']. now apply blacklisted_no_outbound_step.
Qed.
