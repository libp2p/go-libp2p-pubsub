(* Proofs about the message cache alone (mcache.go): for EVERY sequence of put / get-for-peer / shift
   operations, a message stays retrievable for exactly HistoryLength shifts and is advertised for
   exactly the first HistoryGossip of them (C17, first sentence). *)
From Coq Require Import List Bool Arith Lia.
Import ListNotations.
From PS Require Import Model.Router Model.Gossip Proofs.ListFacts Proofs.SetMapProofs.

Inductive mop := MPut (i : mid) (t : topic) | MGet (i : mid) (p : peer) | MShift.
Definition mstep (c : mcache) (o : mop) : mcache :=
  match o with
  | MPut i t => mc_put c i t
  | MGet i p => snd (mc_get_for_peer c i p)
  | MShift => mc_shift c
  end.
Definition mrun (c : mcache) (l : list mop) : mcache := fold_left mstep l c.
Definition is_shift (o : mop) : bool := match o with MShift => true | _ => false end.
Definition shifts (l : list mop) : nat := length (filter is_shift l).
Definition puts_id (i : mid) (o : mop) : bool := match o with MPut j _ => Nat.eqb i j | _ => false end.

Definition slot (c : mcache) (k : nat) : list (mid * topic) := nth k (hist c) [].

Lemma hist_put c j u : length (hist (mc_put c j u)) = length (hist c).
Proof. unfold mc_put. cbn. destruct (hist c); reflexivity. Qed.

Lemma In_slot_put c j u k x :
  In x (slot (mc_put c j u) k) <-> In x (slot c k) \/ (k = 0 /\ hist c <> [] /\ x = (j, u)).
Proof.
  unfold slot, mc_put. cbn [hist]. destruct (hist c) as [|h0 r].
  - split; [auto | intros [H|(_ & Hne & _)]; [exact H | now destruct Hne]].
  - destruct k as [|k]; cbn [nth].
    + rewrite in_app_iff. cbn [In]. split.
      * intros [H|[<-|[]]]; [left; exact H | right; repeat split; discriminate].
      * intros [H|(_ & _ & ->)]; [left; exact H | right; left; reflexivity].
    + split; [auto | intros [H|(E & _)]; [exact H | discriminate E]].
Qed.

Lemma hist_get c i p : hist (snd (mc_get_for_peer c i p)) = hist c.
Proof. unfold mc_get_for_peer. destruct (memb i (mmsgs c)); reflexivity. Qed.
Lemma mmsgs_get c i p : mmsgs (snd (mc_get_for_peer c i p)) = mmsgs c.
Proof. unfold mc_get_for_peer. destruct (memb i (mmsgs c)); reflexivity. Qed.

(* mc_shift is written with [rev]; this is what it does *)
Lemma shift_cases c :
  (hist c = [] /\ mc_shift c = c)
  \/ exists h last, hist c = h ++ [last] /\ hist (mc_shift c) = [] :: h
       /\ mmsgs (mc_shift c) = filter (fun i => negb (memb i (map fst last))) (mmsgs c).
Proof.
  unfold mc_shift. destruct (rev (hist c)) as [|last r] eqn:E; apply (f_equal (@rev _)) in E; rewrite rev_involutive in E; [auto|].
  right. exists (rev r), last. auto.
Qed.

Lemma hist_shift c : length (hist (mc_shift c)) = length (hist c).
Proof.
  destruct (shift_cases c) as [[_ ->]|(h & last & -> & -> & _)]; [reflexivity|]. rewrite app_length. cbn. lia.
Qed.

Lemma In_slot_shift c k x :
  In x (slot (mc_shift c) k) <-> exists k', k = S k' /\ S k' < length (hist c) /\ In x (slot c k').
Proof.
  unfold slot. destruct (shift_cases c) as [[E ->]|(h & last & -> & -> & _)].
  - rewrite E. split; [destruct k; intros [] | intros (k' & _ & H & _); cbn in H; lia].
  - rewrite app_length. cbn [length]. destruct k as [|k]; cbn [nth]; [split; [intros [] | intros (k' & E & _); discriminate]|].
    destruct (Nat.lt_ge_cases k (length h)) as [Hk|Hk].
    + split; [intros H; exists k; rewrite app_nth1 by exact Hk; repeat split; [lia | exact H]|].
      intros (k' & [= <-] & _ & H). rewrite app_nth1 in H by exact Hk. exact H.
    + rewrite nth_overflow by exact Hk. split; [intros [] | intros (k' & [= <-] & H & _); lia].
Qed.

Lemma memb_mmsgs_shift c i :
  memb i (mmsgs (mc_shift c)) = memb i (mmsgs c) && negb (memb i (map fst (slot c (pred (length (hist c)))))).
Proof.
  unfold slot. destruct (shift_cases c) as [[E ->]|(h & last & -> & _ & ->)].
  - rewrite E. cbn. rewrite andb_true_r. reflexivity.
  - rewrite memb_filter, app_length, Nat.add_1_r, Nat.pred_succ, app_nth2, Nat.sub_diag by lia. reflexivity.
Qed.

Lemma In_gossip_ids c g t i : In i (mc_gossip_ids c g t) <-> exists j, j < g /\ In (i, t) (slot c j).
Proof.
  unfold mc_gossip_ids, slot. rewrite in_map_iff. split.
  - intros [[a b] [[= ->] Hf]]. apply filter_In in Hf as [Hc Ht]. apply Nat.eqb_eq in Ht. cbn in Ht. subst b.
    apply in_concat in Hc as [sl [Hsl Hisl]]. apply In_nth with (d := []) in Hsl. destruct Hsl as [j [_ <-]].
    rewrite nth_firstn in Hisl. destruct (Nat.ltb_spec j g); [eauto | destruct Hisl].
  - intros [j [Hj Hin]]. exists (i, t). split; [reflexivity|]. apply filter_In. split; [|cbn; apply Nat.eqb_refl].
    apply in_concat. exists (nth j (hist c) []). split; [|exact Hin].
    destruct (Nat.lt_ge_cases j (length (hist c))) as [Hl|Hl]; [|rewrite nth_overflow in Hin by exact Hl; destruct Hin].
    replace (nth j (hist c) []) with (nth j (firstn g (hist c)) [])
      by (rewrite nth_firstn; destruct (Nat.ltb_spec j g); [reflexivity | lia]).
    apply nth_In. rewrite firstn_length. lia.
Qed.

Lemma tx_get_set_same i p n l : tx_get i p (tx_set i p n l) = n.
Proof. unfold tx_set. cbn. rewrite !Nat.eqb_refl. reflexivity. Qed.
Lemma tx_get_filter_other (f : (mid * peer) * nat -> bool) i p l :
  (forall n, f ((i, p), n) = true) -> tx_get i p (filter f l) = tx_get i p l.
Proof.
  intros Hf. induction l as [|[[j q] n] l IH]; cbn; [reflexivity|].
  destruct (Nat.eqb i j && Nat.eqb p q) eqn:He.
  - rewrite andb_true_iff, !Nat.eqb_eq in He. destruct He as [<- <-]. rewrite Hf. cbn. rewrite !Nat.eqb_refl. reflexivity.
  - destruct (f (j, q, n)); cbn; [rewrite He|]; exact IH.
Qed.
Lemma tx_get_set_other i p j q n l : (i, p) <> (j, q) -> tx_get i p (tx_set j q n l) = tx_get i p l.
Proof.
  intros Hne. assert (E : Nat.eqb i j && Nat.eqb p q = false).
  { destruct (Nat.eqb_spec i j) as [->|]; [|reflexivity]. destruct (Nat.eqb_spec p q) as [->|]; [congruence | reflexivity]. }
  unfold tx_set. cbn [tx_get]. rewrite E. apply tx_get_filter_other. intros m. cbn [fst snd].
  rewrite (Nat.eqb_sym j i), (Nat.eqb_sym q p), E. reflexivity.
Qed.
(* an id that survives a shift keeps its transmission counts *)
Lemma mc_shift_sub c i :
  memb i (mmsgs (mc_shift c)) = true ->
  memb i (mmsgs c) = true /\ forall p, tx_get i p (peertx (mc_shift c)) = tx_get i p (peertx c).
Proof.
  unfold mc_shift. destruct (rev (hist c)) as [|last rest]; [auto|]. cbn [mmsgs peertx].
  rewrite memb_filter. intros H. apply andb_true_iff in H as [H1 H2]. split; [exact H1|].
  intros p. apply tx_get_filter_other. intros n. exact H2.
Qed.

(* the id sits in window slot k (and nowhere else) and is retrievable *)
Set Implicit Arguments.
Record At (HL : nat) (c : mcache) (i : mid) (t : topic) (k : nat) : Prop := {
  at_len : length (hist c) = HL;
  at_lt : k < HL;
  at_in : In (i, t) (slot c k);
  at_only : forall j t', In (i, t') (slot c j) -> j = k /\ t' = t;
  at_cached : memb i (mmsgs c) = true
}.
Unset Implicit Arguments.
(* the id is nowhere in the cache *)
Definition Gone (HL : nat) (c : mcache) (i : mid) : Prop :=
  length (hist c) = HL /\ (forall j t', ~ In (i, t') (slot c j)) /\ memb i (mmsgs c) = false.

Lemma Gone_init HL i : Gone HL (mc_init HL) i.
Proof.
  unfold Gone, mc_init, slot; cbn. split; [apply repeat_length|]. split; [|reflexivity].
  intros j t' H. destruct (Nat.lt_ge_cases j HL) as [Hlt|Hge].
  - rewrite nth_repeat in H. destruct H.
  - rewrite nth_overflow in H by (rewrite repeat_length; exact Hge). destruct H.
Qed.

Lemma At_put HL c i t k j u : i <> j -> At HL c i t k -> At HL (mc_put c j u) i t k.
Proof.
  intros Hne [Hl Hk Hin Huniq Hm]. split; rewrite ?hist_put; cbn [mmsgs mc_put]; try assumption.
  - apply In_slot_put. left. exact Hin.
  - intros j0 t' H. apply In_slot_put in H as [H|(_ & _ & E)]; [apply (Huniq j0 t' H) | congruence].
  - rewrite memb_sadd, Hm. apply orb_true_r.
Qed.

Lemma Gone_put HL c i j u : i <> j -> Gone HL c i -> Gone HL (mc_put c j u) i.
Proof.
  intros Hne (Hl & Hno & Hm). unfold Gone. rewrite hist_put. cbn [mmsgs mc_put].
  split; [exact Hl|]. split; [|rewrite memb_sadd, Hm; destruct (Nat.eqb_spec i j); [congruence | reflexivity]].
  intros j0 t' H. apply In_slot_put in H as [H|(_ & _ & E)]; [apply (Hno j0 t' H) | congruence].
Qed.

Lemma put_fresh HL c i t : 0 < HL -> Gone HL c i -> At HL (mc_put c i t) i t 0.
Proof.
  intros Hpos (Hl & Hno & Hm). split; rewrite ?hist_put; cbn [mmsgs mc_put]; try assumption.
  - apply In_slot_put. right. repeat split. intros E. rewrite E in Hl. cbn in Hl. lia.
  - intros j t' H. apply In_slot_put in H as [H|(-> & _ & [= ->])]; [destruct (Hno j t' H) | auto].
  - rewrite memb_sadd, Nat.eqb_refl. reflexivity.
Qed.

Lemma At_get HL c i t k j p : At HL c i t k -> At HL (snd (mc_get_for_peer c j p)) i t k.
Proof. intros [Hl Hk Hin Huniq Hm]. split; unfold slot; rewrite ?hist_get, ?mmsgs_get; assumption. Qed.
Lemma Gone_get HL c i j p : Gone HL c i -> Gone HL (snd (mc_get_for_peer c j p)) i.
Proof. unfold Gone, slot. rewrite hist_get, mmsgs_get. auto. Qed.

Lemma At_shift_young HL c i t k : S k < HL -> At HL c i t k -> At HL (mc_shift c) i t (S k).
Proof.
  intros Hsk [Hl Hk Hin Huniq Hm]. split; rewrite ?hist_shift; try assumption.
  - apply In_slot_shift. exists k. repeat split; [lia | exact Hin].
  - intros j t' H. apply In_slot_shift in H as (k' & -> & _ & H). destruct (Huniq k' t' H) as [-> ->]. auto.
  - rewrite memb_mmsgs_shift, Hm, Hl. destruct (memb i (map fst (slot c (pred HL)))) eqn:Hd; [|reflexivity].
    apply memb_In, in_map_fst in Hd as [t' Ht']. destruct (Huniq _ _ Ht'). lia.
Qed.

Lemma At_shift_old HL c i t k : S k = HL -> At HL c i t k -> Gone HL (mc_shift c) i.
Proof.
  intros Hsk [Hl Hk Hin Huniq Hm]. unfold Gone. rewrite hist_shift, memb_mmsgs_shift, Hm, Hl.
  split; [reflexivity|]. split.
  - intros j t' H. apply In_slot_shift in H as (k' & -> & Hlt & H). destruct (Huniq k' t' H). lia.
  - replace (pred HL) with k by lia. replace (memb i (map fst (slot c k))) with true; [reflexivity|].
    symmetry. apply memb_In, in_map_fst. eauto.
Qed.

Lemma Gone_shift HL c i : Gone HL c i -> Gone HL (mc_shift c) i.
Proof.
  intros (Hl & Hno & Hm). unfold Gone. rewrite hist_shift, memb_mmsgs_shift, Hm.
  split; [exact Hl|]. split; [|reflexivity].
  intros j t' H. apply In_slot_shift in H as (k' & _ & _ & H). apply (Hno k' t' H).
Qed.

Lemma At_gossip HL c i t k g : At HL c i t k -> (In i (mc_gossip_ids c g t) <-> k < g).
Proof.
  intros A. rewrite In_gossip_ids.
  split; [intros [j [Hj H]]; destruct (at_only A j t H); lia | intros Hk; exists k; split; [exact Hk | apply (at_in A)]].
Qed.

Lemma Gone_gossip HL c i t g : Gone HL c i -> ~ In i (mc_gossip_ids c g t).
Proof. intros (_ & Hno & _) H. apply In_gossip_ids in H as [j [_ H]]. exact (Hno j t H). Qed.

Lemma Gone_mrun HL i l : forall c,
  Gone HL c i -> forallb (fun o => negb (puts_id i o)) l = true -> Gone HL (mrun c l) i.
Proof.
  induction l as [|o l IH]; intros c HG Hnp; [exact HG|].
  cbn in Hnp. apply andb_true_iff in Hnp as [Ho Hnp]. apply IH; [|exact Hnp].
  destruct o as [j u | j p |]; cbn.
  - cbn in Ho. apply negb_true_iff, Nat.eqb_neq in Ho. apply Gone_put; assumption.
  - apply Gone_get; assumption.
  - apply Gone_shift; assumption.
Qed.

Lemma window_run HL l : forall c i t k,
  At HL c i t k -> forallb (fun o => negb (puts_id i o)) l = true ->
  (k + shifts l < HL -> At HL (mrun c l) i t (k + shifts l))
  /\ (HL <= k + shifts l -> Gone HL (mrun c l) i).
Proof.
  induction l as [|o l IH]; intros c i t k HA Hnp.
  - unfold shifts; cbn. rewrite Nat.add_0_r. split; [intros _; exact HA|]. intros Hge. pose proof (at_lt HA). lia.
  - cbn in Hnp. apply andb_true_iff in Hnp as [Ho Hnp].
    change (mrun c (o :: l)) with (mrun (mstep c o) l). destruct o as [j u | j p |].
    + cbn in Ho. apply negb_true_iff, Nat.eqb_neq in Ho. apply IH; [apply At_put; assumption | exact Hnp].
    + apply IH; [apply At_get; assumption | exact Hnp].
    + change (shifts (MShift :: l)) with (S (shifts l)). rewrite Nat.add_succ_r. pose proof (at_lt HA) as Hk.
      destruct (Nat.eq_dec (S k) HL) as [He|Hn].
      * split; [intros; lia|]. intros _. apply Gone_mrun; [apply (At_shift_old HL c i t k He HA) | exact Hnp].
      * apply (IH _ i t (S k)); [apply At_shift_young; [lia | exact HA] | exact Hnp].
Qed.

Definition retrievable (c : mcache) (i : mid) (p : peer) : bool :=
  match fst (mc_get_for_peer c i p) with Some _ => true | None => false end.
Lemma retrievable_memb c i p : retrievable c i p = memb i (mmsgs c).
Proof. unfold retrievable, mc_get_for_peer. destruct (memb i (mmsgs c)); reflexivity. Qed.

(* The window theorem: put a fresh id, then run ANY sequence of cache operations that does not put
   the same id again.  The id is retrievable iff fewer than HistoryLength shifts happened and is in
   the gossip window iff fewer than HistoryGossip shifts happened. *)
Theorem mcache_window HL HG c i t l p :
  0 < HL -> HG <= HL -> Gone HL c i ->
  forallb (fun o => negb (puts_id i o)) l = true ->
  let c' := mrun (mc_put c i t) l in
  (retrievable c' i p = true <-> shifts l < HL)
  /\ (In i (mc_gossip_ids c' HG t) <-> shifts l < HG)
  /\ (forall t', In i (mc_gossip_ids c' HG t') -> t' = t).
Proof.
  intros Hpos Hle HG0 Hnp c'.
  assert (HA : At HL (mc_put c i t) i t 0) by (apply put_fresh; assumption).
  destruct (window_run HL l _ _ _ _ HA Hnp) as [W1 W2]. cbn [Nat.add] in W1, W2.
  rewrite retrievable_memb.
  destruct (Nat.lt_ge_cases (shifts l) HL) as [Hlt|Hge].
  - specialize (W1 Hlt). fold c' in W1. split; [|split].
    + rewrite (at_cached W1). split; intros; [exact Hlt | reflexivity].
    + apply (At_gossip HL c' i t _ HG W1).
    + intros t' H. apply In_gossip_ids in H as [j [_ H]]. apply (at_only W1 j t' H).
  - specialize (W2 Hge). fold c' in W2. split; [|split].
    + destruct W2 as (_ & _ & Hm). rewrite Hm. split; intros; [discriminate | lia].
    + split; [intros H; exfalso; apply (Gone_gossip HL c' i t HG W2 H) | intros; lia].
    + intros t' H. exfalso. apply (Gone_gossip HL c' i t' HG W2 H).
Qed.
