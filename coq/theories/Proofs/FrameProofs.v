From Coq Require Import List NArith Lia.
Import ListNotations.
From PS Require Import Model.Frame.
Local Open Scope N_scope.

Lemma take_length n : forall l a b, take n l = Some (a, b) -> length a = n /\ l = a ++ b.
Proof.
  induction n as [|n IH]; intros l a b; cbn [take].
  - now intros [= <- <-].
  - destruct l as [|x r]; [discriminate|]. destruct (take n r) as [[a' b']|] eqn:E; [|discriminate].
    intros [= <- <-]. destruct (IH _ _ _ E) as [<- ->]. now split.
Qed.

(* whatever bytes a peer writes to its stream: every frame handed to the event loop is non-empty, within the size
   limit and decodes as an RPC *)
Lemma reader_frames fuel max decodes : forall bs,
  Forall (fun f => f <> [] /\ N.of_nat (length f) <= max /\ decodes f = true) (fst (reader fuel max decodes bs)).
Proof.
  induction fuel as [|fuel IH]; intros bs; cbn [reader]; [constructor|].
  destruct (next_len bs) as [len rest| | |r|r]; try constructor.
  destruct (N.eqb_spec len 0) as [|E0]; [apply IH|].
  destruct (N.ltb_spec max len) as [|Em]; [constructor|].
  destruct (take (N.to_nat len) rest) as [[payload rest']|] eqn:Et; [|destruct rest; constructor].
  destruct (decodes payload) eqn:Ed; [|constructor].
  specialize (IH rest'). destruct (reader fuel max decodes rest') as [fs' e']. constructor; [|exact IH].
  destruct (take_length _ _ _ _ Et) as [Hl _]. split; [|split; [|exact Ed]].
  - intros ->. cbn in Hl. lia.
  - rewrite Hl, N2Nat.id. exact Em.
Qed.

(* read_stream takes the bytes of this one stream and nothing else; the statement itself only names its result
   (it would hold of any function into a pair) *)
Theorem read_stream_total max decodes bs : exists fs e, read_stream max decodes bs = (fs, e).
Proof. destruct (read_stream max decodes bs) as [fs e]. eauto. Qed.

(* a stream whose first frame announces a length above the limit is reset before anything is delivered, however the
   bytes continue *)
Theorem oversize_resets max decodes bs len rest :
  next_len bs = UOk len rest -> max < len -> reader (S (length bs)) max decodes bs = ([], EReset 2).
Proof.
  intros H Hlt. cbn [reader]. rewrite H.
  destruct (len =? 0) eqn:E0; [apply N.eqb_eq in E0; lia|].
  apply N.ltb_lt in Hlt. rewrite Hlt. reflexivity.
Qed.

(* a stream whose first payload does not decode is reset before anything is delivered *)
Theorem undecodable_resets max decodes bs len rest payload rest' :
  next_len bs = UOk len rest -> len <> 0 -> len <= max -> take (N.to_nat len) rest = Some (payload, rest') -> decodes payload = false ->
  reader (S (length bs)) max decodes bs = ([], EReset 4).
Proof.
  intros H H0 Hle Ht Hd. cbn [reader]. rewrite H.
  apply N.eqb_neq in H0. rewrite H0. apply N.ltb_ge in Hle. rewrite Hle, Ht, Hd. reflexivity.
Qed.
