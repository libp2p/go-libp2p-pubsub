From Coq Require Import List Bool Lia Permutation.
Import ListNotations.
From PS Require Import Model.Verdict Proofs.SetMapProofs.

Definition is_rej (t : tres) := match t with TRej => true | _ => false end.
Definition is_thr (t : tres) := match t with TThr => true | _ => false end.
Definition is_ign (t : tres) := match t with TIgn => true | _ => false end.

(* the loop over asynchronous results depends only on which kinds of result occur *)
Lemma async_loop_spec l : forall acc,
  async_loop l acc =
  if existsb is_rej l then TRej
  else if existsb is_thr l || is_thr acc then TThr
  else if existsb is_ign l || is_ign acc then TIgn
  else acc.
Proof.
  induction l as [|r l IH]; intros acc; cbn [async_loop existsb].
  - destruct acc; reflexivity.
  - destruct r; cbn [is_rej is_thr is_ign orb]; rewrite ?IH.
    + reflexivity.
    + reflexivity.
    + destruct (existsb is_rej l); [reflexivity|]. destruct acc; cbn; rewrite ?orb_true_r;
        destruct (existsb is_thr l); reflexivity.
    + destruct (existsb is_rej l); [reflexivity|]. rewrite orb_true_r. reflexivity.
Qed.

Lemma existsb_perm {A} (f : A -> bool) l1 l2 : Permutation l1 l2 -> existsb f l1 = existsb f l2.
Proof.
  induction 1; cbn; auto.
  - now rewrite IHPermutation.
  - destruct (f x), (f y); reflexivity.
  - congruence.
Qed.

Theorem async_order_irrelevant l1 l2 acc : Permutation l1 l2 -> async_loop l1 acc = async_loop l2 acc.
Proof.
  intros P. rewrite !async_loop_spec.
  now rewrite (existsb_perm is_rej _ _ P), (existsb_perm is_thr _ _ P), (existsb_perm is_ign _ _ P).
Qed.

Lemma inline_stage_spec l : forall acc n,
  fst (inline_stage l acc n) =
  if existsb (fun v => is_rej (of_v v)) l then TRej
  else if existsb (fun v => is_ign (of_v v)) l then TIgn else acc.
Proof.
  induction l as [|v l IH]; intros acc n; cbn [inline_stage existsb]; [reflexivity|].
  destruct (of_v v) eqn:E; cbn [is_rej is_ign orb fst].
  - apply IH.
  - reflexivity.
  - rewrite IH. destruct (existsb (fun v0 => is_rej (of_v v0)) l); [reflexivity|].
    destruct (existsb (fun v0 => is_ign (of_v v0)) l); reflexivity.
  - destruct v; discriminate.
Qed.

(* how many inline validators run: the loop stops at a Reject, so at most all of them, and all of them when none rejects *)
Lemma inline_executed l : forall acc n,
  (snd (inline_stage l acc n) <= n + length l)%nat /\
  (existsb (fun v => is_rej (of_v v)) l = false -> snd (inline_stage l acc n) = (n + length l)%nat).
Proof.
  induction l as [|v l IH]; intros acc n; cbn [inline_stage existsb length]; [cbn [snd]; split; [lia|intros; lia]|].
  destruct (of_v v) eqn:E; cbn [is_rej orb snd].
  - destruct (IH acc (S n)) as [A B]. split; [lia|]. intros H. rewrite (B H). lia.
  - split; [lia|discriminate].
  - destruct (IH TIgn (S n)) as [A B]. split; [lia|]. intros H. rewrite (B H). lia.
  - destruct v; discriminate.
Qed.

Definition any_inline_rej (s : setup) := existsb (fun v => is_rej (of_v v)) (inl s).
Definition any_inline_ign (s : setup) := existsb (fun v => is_ign (of_v v)) (inl s).

Lemma verdict_unfold s :
  verdict s =
  if any_inline_rej s then TRej
  else let ir := if any_inline_ign s then TIgn else TAcc in
       match asy s with
       | [] => ir
       | _ => if s_global_thr s then TThr else match async_stage s with TAcc => ir | r => r end
       end.
Proof.
  unfold verdict. destruct (inline_stage (inl s) TAcc 0) as [ir n] eqn:E.
  pose proof (inline_stage_spec (inl s) TAcc 0) as S. rewrite E in S. cbn [fst] in S.
  unfold any_inline_rej, any_inline_ign. rewrite S.
  destruct (existsb (fun v => is_rej (of_v v)) (inl s)); [reflexivity|].
  destruct (existsb (fun v => is_ign (of_v v)) (inl s)); reflexivity.
Qed.

(* an inline Reject decides, whatever else is configured *)
Theorem inline_reject_rejects s : any_inline_rej s = true -> fate_of_setup s = RejectPenalise.
Proof. intros H. unfold fate_of_setup. rewrite verdict_unfold, H. reflexivity. Qed.

(* delivered only if every validator that applies accepted: no inline Reject / Ignore / unknown value, and the
   asynchronous stage, if there is one, ran un-throttled and produced Accept *)
Lemma deliver_needs_all_accept s :
  fate_of_setup s = Deliver ->
  any_inline_rej s = false /\ any_inline_ign s = false /\ (asy s = [] \/ s_global_thr s = false /\ async_stage s = TAcc).
Proof.
  unfold fate_of_setup. rewrite verdict_unfold.
  destruct (any_inline_rej s); [discriminate|]. destruct (any_inline_ign s); cbn zeta.
  - destruct (asy s); [discriminate|]. destruct (s_global_thr s); [discriminate|]. destruct (async_stage s); discriminate.
  - destruct (asy s); [auto|]. destruct (s_global_thr s); [discriminate|]. destruct (async_stage s); try discriminate. auto.
Qed.

Lemma async_accept_iff l :
  async_loop l TAcc = TAcc <-> forallb (fun r => match r with TAcc => true | _ => false end) l = true.
Proof.
  rewrite async_loop_spec. cbn [is_thr is_ign orb].
  induction l as [|r l IH]; cbn; [tauto|].
  destruct r; cbn [is_rej is_thr is_ign orb andb].
  - exact IH.
  - split; discriminate.
  - destruct (existsb is_rej l); [split; discriminate|]. destruct (existsb is_thr l); split; discriminate.
  - destruct (existsb is_rej l); split; discriminate.
Qed.

(* precedence among asynchronous results: a Reject decides, and Throttled comes before Ignore *)
Theorem async_reject_iff l :
  async_loop l TAcc = TRej <-> existsb is_rej l = true.
Proof.
  rewrite async_loop_spec. cbn. destruct (existsb is_rej l); [tauto|].
  destruct (existsb is_thr l); [split; discriminate|]. rewrite !orb_false_r. destruct (existsb is_ign l); split; discriminate.
Qed.
Theorem async_throttled_over_ignore l :
  existsb is_rej l = false -> existsb is_thr l = true -> async_loop l TAcc = TThr.
Proof. intros H1 H2. rewrite async_loop_spec, H1, H2. reflexivity. Qed.

(* no penalty without a Reject: Ignore, unknown values and throttling never yield RejectPenalise *)
Theorem reject_needs_a_reject s :
  fate_of_setup s = RejectPenalise ->
  any_inline_rej s = true \/
  (asy s <> [] /\ s_global_thr s = false /\ async_stage s = TRej).
Proof.
  unfold fate_of_setup. rewrite verdict_unfold.
  destruct (any_inline_rej s); [auto|]. cbn zeta. intros H. right.
  destruct (asy s) eqn:Ea.
  - destruct (any_inline_ign s); discriminate.
  - destruct (s_global_thr s); [discriminate|]. split; [discriminate|]. split; [reflexivity|].
    destruct (async_stage s); destruct (any_inline_ign s); try discriminate; reflexivity.
Qed.

(* a locally published message runs every validator inline and is never throttled *)
Theorem local_all_inline s : s_local s = true -> asy s = [].
Proof.
  intros H. unfold asy. rewrite H. induction (s_vals s) as [|v l IH]; [reflexivity|].
  cbn. rewrite orb_true_r. cbn. exact IH.
Qed.
Theorem local_never_throttled s : s_local s = true -> fate_of_setup s <> ThrottledNoPenalty.
Proof.
  intros H. unfold fate_of_setup. rewrite verdict_unfold, (local_all_inline s H).
  destruct (any_inline_rej s); [discriminate|]. destruct (any_inline_ign s); discriminate.
Qed.

Lemma drun_app r l1 l2 :
  drun r (l1 ++ l2) = let (r1, p1) := drun r l1 in let (r2, p2) := drun r1 l2 in (r2, p1 ++ p2).
Proof.
  revert r. induction l1 as [|e l1 IH]; intros r; cbn [app drun].
  - destruct (drun r l2); reflexivity.
  - destruct (dstep r e) as [r1 p1]. rewrite IH. destruct (drun r1 l1) as [r2 p2].
    destruct (drun r2 l2) as [r3 p3]. now rewrite app_assoc.
Qed.

(* while the status is unknown duplicates only accumulate, without penalty *)
Lemma dups_unknown l : forall ps,
  exists ps', drun {| d_status := DUnknown; d_peers := ps |} (map SDup l) = ({| d_status := DUnknown; d_peers := ps' |}, [])
              /\ (forall p, In p ps' <-> In p ps \/ In p l).
Proof.
  induction l as [|q l IH]; intros ps; cbn [map drun].
  - exists ps. split; [reflexivity|]. intros p; cbn; tauto.
  - cbn [dstep d_peers d_status]. destruct (memb q ps) eqn:M.
    + destruct (IH ps) as (ps' & E & H). rewrite E. exists ps'. split; [reflexivity|].
      intros p. rewrite H. cbn. split; [tauto|]. intros [?|[->|?]]; auto.
      left. apply memb_In, M.
    + destruct (IH (q :: ps)) as (ps' & E & H). rewrite E. exists ps'. split; [reflexivity|].
      intros p. rewrite H. cbn. tauto.
Qed.

(* penalties come from a Reject alone: at the fate itself, and at the duplicates once the record is invalid *)
Lemma no_reject_no_penalty l : forall r,
  d_status r <> DInvalid -> (forall from, ~ In (SFate from RejectPenalise) l) -> snd (drun r l) = [].
Proof.
  induction l as [|e l IH]; intros r Hs Hl; cbn [drun]; [reflexivity|].
  assert (E : snd (dstep r e) = [] /\ d_status (fst (dstep r e)) <> DInvalid).
  { destruct e as [p|from f]; cbn [dstep].
    - destruct (memb p (d_peers r)); [auto|]. destruct (d_status r) eqn:Ed; cbn; auto; split; congruence.
    - destruct (d_status r) eqn:Ed; cbn; try (split; [reflexivity|congruence]).
      destruct f; cbn; try (split; [reflexivity|discriminate]).
      destruct (Hl from). now left. }
  destruct (dstep r e) as [r1 p1], E as [E1 E2]. cbn [fst snd] in *. subst p1.
  specialize (IH r1 E2 (fun from H => Hl from (or_intror H))). now destruct (drun r1 l).
Qed.

Theorem penalised_only_on_reject during from f after :
  f <> RejectPenalise ->
  snd (drun dinit (map SDup during ++ [SFate from f] ++ map SDup after)) = [].
Proof.
  intros Hf. apply no_reject_no_penalty; [discriminate|]. intros p H.
  apply in_app_or in H as [H|[[= _ E]|H]]; [|congruence|]; apply in_map_iff in H as (x & [=] & _).
Qed.

Lemma dups_invalid l : drun {| d_status := DInvalid; d_peers := [] |} (map SDup l) = ({| d_status := DInvalid; d_peers := [] |}, l).
Proof.
  induction l as [|q l IH]; cbn [map drun]; [reflexivity|]. cbn [dstep d_status d_peers memb existsb].
  rewrite IH. reflexivity.
Qed.

(* on Reject every forwarder is penalised: the first one, everyone whose duplicate arrived during
   validation, and everyone who sends it afterwards *)
Theorem penalised_on_reject during from after p :
  In p (snd (drun dinit (map SDup during ++ [SFate from RejectPenalise] ++ map SDup after)))
  <-> p = from \/ In p during \/ In p after.
Proof.
  rewrite drun_app. destruct (dups_unknown during []) as (ps & E & H). unfold dinit. rewrite E.
  cbn [app]. cbn [drun dstep d_status d_peers]. rewrite dups_invalid. cbn [snd app].
  cbn [In]. rewrite in_app_iff, H. cbn [In]. split.
  - intros [<-|[[[]|?]|?]]; auto.
  - intros [->|[?|?]]; auto.
Qed.

(* a full validation queue: the message is dropped without penalty whatever the validators would have said;
   with room in the queue the verdict is the pipeline's *)
Theorem queue_full_drops s : queued s = true -> fate_q s true = ThrottledNoPenalty.
Proof. intros H. unfold fate_q, verdict_q. rewrite H. reflexivity. Qed.
Theorem queue_room_is_pipeline s : fate_q s false = fate_of_setup s.
Proof. reflexivity. Qed.
Theorem deliver_q_needs_pipeline s q : fate_q s q = Deliver -> fate_of_setup s = Deliver /\ (q = false \/ queued s = false).
Proof.
  unfold fate_q, verdict_q, fate_of_setup. destruct q; cbn [andb].
  - destruct (queued s); [discriminate|]. intros H. split; [exact H | right; reflexivity].
  - intros H. split; [exact H | left; reflexivity].
Qed.
