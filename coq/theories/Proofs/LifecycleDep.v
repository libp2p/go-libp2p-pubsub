(* C13, C16: the dependency invariants between the per-peer presence bits and their preservation by every handler. *)
From Coq Require Import Bool.
From PS Require Import Model.Lifecycle.

(* everything that has no timer of its own hangs off the outbound queue or the inbound stream *)
Definition depb (v : pv) : bool :=
  implb (v_out v) (v_queue v)
  && implb (v_mesh v) (v_out v) && implb (v_prot v) (v_mesh v)
  && implb (v_fanout v) (v_out v) && implb (v_bufs v) (v_out v)
  && implb (v_ext_sent v) (v_out v) && implb (v_gater v) (v_out v || v_in v)
  && implb (v_topics v) (v_in v) && implb (v_ext_peer v) (v_in v).

(* the one handler that breaks the discipline: a GRAFT accepted from a peer without an outbound stream
   (handleGraft does not look at gs.peers) - known finding, see DESIGN.md *)
Definition guarded (v : pv) (e : lev) : bool :=
  match e with LGraft true => v_out v | _ => true end.

(* Every handler of [lstep] is a conditional on a few bits of the vector (and the event's own flag).
   [handler_cases] decides exactly the conditions tested, so that the fields of [lstep v e] become explicit. *)
Ltac handler_cases v e :=
  destruct v as [q o i t m f b p ep es g sc bo c pr bl];
  destruct e as [| |[]| | | | | |[]| | | | | | | | | | |[]]; cbn;
  repeat match goal with |- context [if ?x then _ else _] => destruct x; cbn end.

(* With the tested bits fixed, every clause of [depb] for the new vector is a clause for the old one or holds
   outright.  The rewrites bring the second sort to [true]: [implb_true_r] a clause x -> y whose y the handler has
   just set; [orb_true_r] the gater clause g -> o || i once i is known; [implb_orb_distrib_l] and [implb_same] the
   clause of LGossip's v_bufs := b || o, which splits into b -> o (an old clause) and o -> o. *)
Lemma dep_step v e : depb v = true -> guarded v e = true -> depb (lstep v e) = true.
Proof.
  unfold depb. handler_cases v e; trivial;
    intros H G; repeat (apply andb_prop in H as [H ?]);
    rewrite ?implb_orb_distrib_l, ?implb_same, ?orb_true_r, ?implb_true_r;
    repeat (apply andb_true_intro; split); trivial.
Qed.

(* without a queue there is no outbound stream, and nothing of what hangs off it *)
Lemma dep_no_queue v : depb v = true -> v_queue v = false ->
  v_out v = false /\ v_mesh v = false /\ v_fanout v = false /\ v_bufs v = false /\ v_prot v = false
  /\ v_ext_sent v = false.
Proof.
  unfold depb. destruct v as [q o i t m f b p ep es g sc bo c pr bl]; cbn. intros H ->.
  destruct o; [discriminate|]. destruct m, f, b, es, p; try discriminate. repeat split.
Qed.
