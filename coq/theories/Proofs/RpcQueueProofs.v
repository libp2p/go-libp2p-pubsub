(* [step_inv] reads a successful step of Model/RpcQueue.v once: its guards, and either one of four plain
   updates or an outcome of Pop's or push's loop body ([pop_out], [push_out]), run from the state itself
   (Relock) or from [mark_used] of it (Begin).  Three invariants are proved from that reading, each by one
   lemma per loop body and a dispatch over the actions, and [reachable_invariants] collects them; the theorems of
   Props/C15.v are read off [reachable_invariants], [step_inv] and the facts about [s_pop] / [s_push] that come first. *)
From Coq Require Import List Bool Arith Lia.
Import ListNotations.
From PS Require Import Model.RpcQueue Proofs.ListFacts.

Lemma s_pop_cases qq :
  (exists q' x, s_pop qq = (q', RItem x)) \/
  s_pop qq = (qq, RClosed) /\ s_closed qq = true \/
  s_pop qq = (qq, RBlocked) /\ s_closed qq = false /\ s_len qq = 0.
Proof.
  unfold s_pop, s_len. destruct (s_closed qq); [auto|].
  destruct (s_prio qq); [destruct (s_norm qq)|]; cbn; eauto 6.
Qed.

Record popped_item (qq q' : sq) (x : item) : Prop := {
  pi_open  : s_closed qq = false;
  pi_open' : s_closed q' = false;
  pi_cap   : s_cap q' = s_cap qq;
  pi_len   : S (s_len q') = s_len qq;
  pi_from  : s_prio qq = x :: s_prio q' /\ s_norm q' = s_norm qq \/
             s_prio qq = [] /\ s_prio q' = [] /\ s_norm qq = x :: s_norm q'
}.

Lemma s_pop_item qq q' x : s_pop qq = (q', RItem x) -> popped_item qq q' x.
Proof.
  unfold s_pop. destruct (s_closed qq) eqn:C; [discriminate|].
  destruct (s_prio qq) as [|y p] eqn:P; [destruct (s_norm qq) as [|y n] eqn:N; [discriminate|]|];
    intros [= <- <-]; split; unfold s_len; cbn; rewrite ?P, ?N; auto.
Qed.

Lemma s_push_cases qq x u :
  s_push qq x u = (qq, RPanic) /\ s_closed qq = true \/
  s_push qq x u = (qq, RFull) /\ s_closed qq = false /\ s_len qq = s_cap qq \/
  exists q', s_push qq x u = (q', ROk).
Proof.
  unfold s_push. destruct (s_closed qq); [auto|].
  destruct (Nat.eqb_spec (s_len qq) (s_cap qq)); [auto|]. destruct u; eauto.
Qed.

Record pushed_item (qq : sq) (x : item) (u : bool) (q' : sq) : Prop := {
  pu_open  : s_closed qq = false;
  pu_open' : s_closed q' = false;
  pu_room  : s_len qq <> s_cap qq;
  pu_cap   : s_cap q' = s_cap qq;
  pu_len   : s_len q' = S (s_len qq);
  pu_prio  : s_prio q' = if u then s_prio qq ++ [x] else s_prio qq;
  pu_norm  : s_norm q' = if u then s_norm qq else s_norm qq ++ [x]
}.

Lemma s_push_ok qq x u q' : s_push qq x u = (q', ROk) -> pushed_item qq x u q'.
Proof.
  unfold s_push. destruct (s_closed qq) eqn:C; [discriminate|].
  destruct (Nat.eqb_spec (s_len qq) (s_cap qq)); [discriminate|].
  destruct u; intros [= <-]; split; unfold s_len; cbn; rewrite ?app_length; cbn; auto; lia.
Qed.

Theorem spec_push_full_iff qq x u :
  s_closed qq = false -> (snd (s_push qq x u) = RFull <-> s_len qq = s_cap qq).
Proof.
  intros C. unfold s_push. rewrite C. destruct (Nat.eqb_spec (s_len qq) (s_cap qq)); cbn.
  - tauto.
  - destruct u; cbn; split; intros; congruence.
Qed.

Theorem spec_pop_urgent_first qq q' x :
  s_pop qq = (q', RItem x) ->
  match s_prio qq with y :: _ => x = y | [] => exists n, s_norm qq = x :: n end.
Proof.
  intros H. destruct (pi_from _ _ _ (s_pop_item _ _ _ H)) as [[P _]|(P & _ & N)]; rewrite P; eauto.
Qed.

Theorem spec_push_on_closed qq x u : s_closed qq = true -> s_push qq x u = (qq, RPanic).
Proof. intros C. unfold s_push. now rewrite C. Qed.

Theorem spec_pop_on_closed qq : s_closed qq = true -> s_pop qq = (qq, RClosed).
Proof. intros C. unfold s_pop. now rewrite C. Qed.

Lemma srem_length i l : memb i l = true -> S (length (srem i l)) = length l.
Proof.
  induction l as [|j l IH]; cbn [memb existsb srem]; [discriminate|].
  destruct (Nat.eqb i j); cbn [orb length]; [reflexivity|]. intros H. now rewrite (IH H).
Qed.

Lemma urem_length i l u : ufind i l = Some u -> S (length (urem i l)) = length l.
Proof.
  induction l as [|v l IH]; cbn [ufind urem]; [discriminate|].
  destruct (Nat.eqb i (u_id v)); cbn [length]; [reflexivity|]. intros H. now rewrite (IH H).
Qed.

Lemma ufind_id i l u : ufind i l = Some u -> u_id u = i.
Proof.
  induction l as [|v l IH]; cbn [ufind]; [discriminate|].
  destruct (Nat.eqb_spec i (u_id v)); [intros [= <-]; auto|exact IH].
Qed.

Lemma umemb_ufind i l : umemb i l = true -> exists u, ufind i l = Some u.
Proof.
  induction l as [|v l IH]; cbn [umemb existsb ufind]; [discriminate|].
  destruct (Nat.eqb i (u_id v)); cbn [orb]; eauto.
Qed.

Lemma memb_app i a b : memb i (a ++ b) = memb i a || memb i b.
Proof. unfold memb. apply existsb_app. Qed.

Lemma memb_cons_iff j k l : memb j (k :: l) = true <-> j = k \/ memb j l = true.
Proof.
  cbn [memb existsb]. fold (memb j l). destruct (Nat.eqb_spec j k); cbn [orb]; split; auto.
  intros [?|?]; [contradiction|auto].
Qed.

Lemma memb_srem_other i j l : i <> j -> memb i (srem j l) = memb i l.
Proof.
  intros Hij. induction l as [|k l IH]; cbn [srem memb existsb]; [reflexivity|].
  destruct (Nat.eqb_spec j k) as [->|Hjk].
  - destruct (Nat.eqb_spec i k); [congruence|reflexivity].
  - cbn [memb existsb]. fold (memb i (srem j l)). fold (memb i l). now rewrite IH.
Qed.

Lemma memb_srem_self_sub i l j : memb j (srem i l) = true -> memb j l = true.
Proof.
  induction l as [|k l IH]; cbn [srem]; [discriminate|].
  rewrite (memb_cons_iff j k l). destruct (Nat.eqb i k); [auto|].
  rewrite memb_cons_iff. intros [?|?]; auto.
Qed.

Lemma sig_ok_u_none ws : sig_ok_u None ws = true -> ws = [].
Proof. destruct ws; cbn; congruence. Qed.
Lemma sig_ok_p_none ws : sig_ok_p None ws = true -> ws = [].
Proof. destruct ws; cbn; congruence. Qed.

(* Pop's loop body, run by popper i with the mutex, leaving [afl] as the registrations and [pw] as
   the woken poppers: it returns without touching the queue, takes an item (and signals w), or
   keeps the mutex on its way to Cond.Wait. *)
Inductive pop_out (s : st) (i : tid) (afl : list (tid * afst)) (pw : list tid) : option tid -> st -> Prop :=
| PopRet r :
    r = RClosed /\ s_closed (q s) = true \/
    r = RCancelled /\ s_closed (q s) = false /\ s_len (q s) = 0 /\ memb i (cancelled s) = true ->
    pop_out s i afl pw None (with_result s i r afl pw (u_woken s))
| PopItem w q' x :
    s_pop (q s) = (q', RItem x) -> sig_ok_u w (space_wait s) = true ->
    pop_out s i afl pw w
      {| q := q'; holder := None; data_wait := data_wait s; p_woken := pw;
         space_wait := match w with Some j => urem j (space_wait s) | None => space_wait s end;
         u_woken := match w with Some j => match ufind j (space_wait s) with Some u => [u] | None => [] end
                                | None => [] end ++ u_woken s;
         cancelled := cancelled s; af := afl; used := used s; results := (i, RItem x) :: results s;
         pushedU := pushedU s; pushedN := pushedN s;
         poppedU := if match s_prio (q s) with [] => false | _ => true end then poppedU s ++ [x] else poppedU s;
         poppedN := if match s_prio (q s) with [] => false | _ => true end then poppedN s else poppedN s ++ [x] |}
| PopHold :
    s_closed (q s) = false -> s_len (q s) = 0 -> memb i (cancelled s) = false ->
    pop_out s i afl pw None
      {| q := q s; holder := Some i; data_wait := data_wait s; p_woken := pw;
         space_wait := space_wait s; u_woken := u_woken s; cancelled := cancelled s;
         af := afl; used := used s; results := results s;
         pushedU := pushedU s; pushedN := pushedN s; poppedU := poppedU s; poppedN := poppedN s |}.

(* push's loop body, run by pusher u with the mutex, leaving [uw] as the woken pushers *)
Inductive push_out (s : st) (u : pusher) (block : bool) (uw : list pusher) : option tid -> st -> Prop :=
| PushRet r :
    r = RPanic /\ s_closed (q s) = true \/
    r = RFull /\ block = false /\ s_closed (q s) = false /\ s_len (q s) = s_cap (q s) ->
    push_out s u block uw None (with_result s (u_id u) r (af s) (p_woken s) uw)
| PushOk w q' :
    s_push (q s) (u_item u) (u_urgent u) = (q', ROk) -> sig_ok_p w (data_wait s) = true ->
    push_out s u block uw w
      {| q := q'; holder := None;
         data_wait := match w with Some j => srem j (data_wait s) | None => data_wait s end;
         p_woken := match w with Some j => j :: p_woken s | None => p_woken s end;
         space_wait := space_wait s; u_woken := uw; cancelled := cancelled s; af := af s;
         used := used s; results := (u_id u, ROk) :: results s;
         pushedU := if u_urgent u then pushedU s ++ [u_item u] else pushedU s;
         pushedN := if u_urgent u then pushedN s else pushedN s ++ [u_item u];
         poppedU := poppedU s; poppedN := poppedN s |}
| PushPark :
    block = true -> s_closed (q s) = false -> s_len (q s) = s_cap (q s) ->
    push_out s u block uw None
      {| q := q s; holder := None; data_wait := data_wait s; p_woken := p_woken s;
         space_wait := space_wait s ++ [u]; u_woken := uw; cancelled := cancelled s; af := af s;
         used := used s; results := results s;
         pushedU := pushedU s; pushedN := pushedN s; poppedU := poppedU s; poppedN := poppedN s |}.

Lemma pop_body_out s i w afl0 afl pw s' :
  (if s_closed (q s)
   then match w with None => Some (with_result s i RClosed afl0 pw (u_woken s)) | Some _ => None end
   else pop_loop s i w afl pw) = Some s' ->
  pop_out s i (if s_closed (q s) then afl0 else afl) pw w s'.
Proof.
  destruct (s_closed (q s)) eqn:C.
  { destruct w; [discriminate|]. intros [= <-]. apply (PopRet _ _ _ _ RClosed). auto. }
  unfold pop_loop. cbv zeta.
  destruct (s_pop_cases (q s)) as [(q' & x & E)|[[E C']|(E & _ & L)]]; rewrite E; [|congruence|].
  - destruct (sig_ok_u w (space_wait s)) eqn:Sg; [|discriminate]. intros [= <-]. now apply PopItem.
  - destruct w; [discriminate|]. destruct (memb i (cancelled s)) eqn:M; intros [= <-].
    + apply (PopRet _ _ _ _ RCancelled). auto.
    + now apply PopHold.
Qed.

Lemma push_body_out s u block w uw s' :
  (if s_closed (q s)
   then match w with None => Some (with_result s (u_id u) RPanic (af s) (p_woken s) uw) | Some _ => None end
   else push_loop s u block w uw) = Some s' ->
  push_out s u block uw w s'.
Proof.
  destruct (s_closed (q s)) eqn:C.
  { destruct w; [discriminate|]. intros [= <-]. apply (PushRet _ _ _ _ RPanic). auto. }
  unfold push_loop.
  destruct (s_push_cases (q s) (u_item u) (u_urgent u)) as [[E C']|[(E & _ & L)|[q' E]]]; rewrite E; [congruence| |].
  - destruct w; [discriminate|]. destruct block; intros [= <-].
    + now apply PushPark.
    + apply (PushRet _ _ _ _ RFull). auto.
  - destruct (sig_ok_p w (data_wait s)) eqn:Sg; [|discriminate]. intros [= <-]. now apply PushOk.
Qed.

(* The guards of [step] read off, with Begin and Relock brought to the same form.  A fresh
   popper registers its AfterFunc unless the queue is closed. *)
Lemma step_inv afl s a s' :
  step afl s a = Some s' ->
  match a with
  | PopBegin i w =>
      holder s = None /\ memb i (used s) = false /\
      pop_out (mark_used s i) i
        (if s_closed (q s) then af s else (i, if memb i (cancelled s) then AFPending else AFArmed) :: af s)
        (p_woken s) w s'
  | PopRelock i w =>
      holder s = None /\ memb i (p_woken s) = true /\ pop_out s i (af s) (srem i (p_woken s)) w s'
  | PushBegin i x urgent block w =>
      holder s = None /\ memb i (used s) = false /\
      push_out (mark_used s i) {| u_id := i; u_item := x; u_urgent := urgent |} block (u_woken s) w s'
  | PushRelock i w =>
      holder s = None /\
      exists u, ufind i (u_woken s) = Some u /\ push_out s u true (urem i (u_woken s)) w s'
  | PopWait i =>
      holder s = Some i /\
      s' = {| q := q s; holder := None; data_wait := data_wait s ++ [i]; p_woken := p_woken s;
              space_wait := space_wait s; u_woken := u_woken s; cancelled := cancelled s; af := af s;
              used := used s; results := results s;
              pushedU := pushedU s; pushedN := pushedN s; poppedU := poppedU s; poppedN := poppedN s |}
  | Cancel i =>
      memb i (cancelled s) = false /\
      s' = {| q := q s; holder := holder s; data_wait := data_wait s; p_woken := p_woken s;
              space_wait := space_wait s; u_woken := u_woken s; cancelled := i :: cancelled s;
              af := match aget i (af s) with Some AFArmed => (i, AFPending) :: af s | _ => af s end;
              used := used s; results := results s;
              pushedU := pushedU s; pushedN := pushedN s; poppedU := poppedU s; poppedN := poppedN s |}
  | AFRun i =>
      aget i (af s) = Some AFPending /\ (afl = true -> holder s = None) /\
      s' = {| q := q s; holder := holder s; data_wait := []; p_woken := data_wait s ++ p_woken s;
              space_wait := space_wait s; u_woken := u_woken s; cancelled := cancelled s;
              af := (i, AFRan) :: af s; used := used s; results := results s;
              pushedU := pushedU s; pushedN := pushedN s; poppedU := poppedU s; poppedN := poppedN s |}
  | Close =>
      holder s = None /\
      s' = {| q := s_close (q s); holder := None; data_wait := []; p_woken := data_wait s ++ p_woken s;
              space_wait := []; u_woken := space_wait s ++ u_woken s; cancelled := cancelled s; af := af s;
              used := used s; results := results s;
              pushedU := pushedU s; pushedN := pushedN s; poppedU := poppedU s; poppedN := poppedN s |}
  end.
Proof.
  destruct a as [i w|i|i w|i|i|i x urgent block w|i w|]; cbn [step]; unfold free.
  - destruct (holder s); [discriminate|]. destruct (memb i (used s)); [discriminate|].
    intros H. repeat split. exact (pop_body_out (mark_used s i) _ _ _ _ _ _ H).
  - destruct (holder s) as [j|]; [|discriminate]. destruct (Nat.eqb_spec i j) as [->|]; [|discriminate].
    intros [= <-]. auto.
  - destruct (holder s); [discriminate|]. destruct (memb i (p_woken s)); [|discriminate].
    intros H%pop_body_out. repeat split. now destruct (s_closed (q s)).
  - destruct (memb i (cancelled s)); [discriminate|]. intros [= <-]. auto.
  - destruct (aget i (af s)) as [[]|]; try discriminate. destruct afl, (holder s); try discriminate;
      intros [= <-]; repeat split; discriminate.
  - destruct (holder s); [discriminate|]. destruct (memb i (used s)); [discriminate|].
    intros H. repeat split. exact (push_body_out (mark_used s i) {| u_id := i |} _ _ _ _ H).
  - destruct (holder s); [discriminate|]. destruct (ufind i (u_woken s)) as [u|] eqn:Eu; [|discriminate].
    destruct (ufind_id _ _ _ Eu). intros H%push_body_out. eauto.
  - destruct (holder s); [discriminate|]. intros [= <-]. auto.
Qed.

Record QInv (s : st) : Prop := {
  qi_bound : len s <= s_cap (q s);
  qi_fifoU : pushedU s = poppedU s ++ s_prio (q s);
  qi_fifoN : pushedN s = poppedN s ++ s_norm (q s);
  qi_hold  : forall i, holder s = Some i -> len s = 0 /\ s_closed (q s) = false
}.

Lemma QInv_init cap : QInv (init cap).
Proof. split; try reflexivity; [apply Nat.le_0_l|discriminate]. Qed.

Lemma pop_out_QInv s i afl pw w s' : QInv s -> pop_out s i afl pw w s' -> QInv s'.
Proof.
  intros [B FU FN _] [r _|w' q' x [_ _ Cap L F]%s_pop_item _|C L _]; split; unfold len in *; cbn; auto; try discriminate.
  - lia.
  - destruct F as [[P _]|(P & P' & _)]; rewrite FU, P.
    + now rewrite <- app_assoc.
    + now rewrite P'.
  - destruct F as [[P N]|(P & _ & N)]; rewrite FN, P, N.
    + reflexivity.
    + now rewrite <- app_assoc.
Qed.

Lemma push_out_QInv s u block uw w s' : QInv s -> push_out s u block uw w s' -> QInv s'.
Proof.
  intros [B FU FN _] [r _|w' q' [_ _ Room Cap L P N]%s_push_ok _|_ _ _]; split; unfold len in *; cbn; auto; try discriminate.
  - lia.
  - rewrite P. destruct (u_urgent u); rewrite FU, ?app_assoc; reflexivity.
  - rewrite N. destruct (u_urgent u); rewrite FN, ?app_assoc; reflexivity.
Qed.

Lemma QInv_mark_used s i : QInv s -> QInv (mark_used s i).
Proof. intros []. now split. Qed.

Lemma step_QInv afl s a s' : QInv s -> step afl s a = Some s' -> QInv s'.
Proof.
  intros I H. apply step_inv in H. pose proof I as [B FU FN Hd].
  destruct a as [i w|i|i w|i|i|i x urgent block w|i w|].
  - destruct H as (_ & _ & H). eapply pop_out_QInv; [|exact H]. now apply QInv_mark_used.
  - destruct H as (_ & ->). split; cbn; auto; discriminate.
  - destruct H as (_ & _ & H). eapply pop_out_QInv; eassumption.
  - destruct H as (_ & ->). now split.
  - destruct H as (_ & _ & ->). now split.
  - destruct H as (_ & _ & H). eapply push_out_QInv; [|exact H]. now apply QInv_mark_used.
  - destruct H as (_ & u & _ & H). eapply push_out_QInv; eassumption.
  - destruct H as (_ & ->). split; cbn; auto; discriminate.
Qed.

Lemma run_QInv afl l : forall s s', QInv s -> run afl s l = Some s' -> QInv s'.
Proof. exact (run_invariant (step afl) (run afl) (fun _ => eq_refl) (fun _ _ _ => eq_refl) QInv (step_QInv afl) l). Qed.

(* No lost Signal: every freed slot has woken a parked pusher and every accepted item a parked popper, so
   while somebody is still parked the woken ones account for all the room, resp. for all the items. *)
Record SInv (s : st) : Prop := {
  si_space : s_closed (q s) = false -> space_wait s <> [] -> s_cap (q s) <= len s + length (u_woken s);
  si_data  : s_closed (q s) = false -> data_wait s <> [] -> len s <= length (p_woken s);
  si_closed : s_closed (q s) = true -> space_wait s = [] /\ data_wait s = []
}.

Lemma SInv_init cap : SInv (init cap).
Proof. split; cbn; congruence. Qed.

Lemma SInv_mark_used s i : SInv s -> SInv (mark_used s i).
Proof. intros []. now split. Qed.

(* A popper that has left p_woken finds the queue empty or makes it one shorter. *)
Lemma pop_out_SInv s i afl pw w s' :
  SInv s -> length (p_woken s) <= S (length pw) -> pop_out s i afl pw w s' -> SInv s'.
Proof.
  intros [Sp Dt Cl] Hpw [r Hr|w' q' x E Sg|C L _]; unfold len in *.
  - split; unfold len; cbn; auto. intros C D. destruct Hr as [[_ C']|(_ & _ & L & _)]; [congruence|lia].
  - apply s_pop_item in E as [C C' Cap L _].
    split; unfold len; cbn; rewrite ?Cap; try congruence.
    + intros _ Hne. destruct w' as [j|].
      * cbn in Sg. destruct (umemb_ufind _ _ Sg) as [u Eu]. rewrite Eu. cbn [app length].
        assert (Parked : space_wait s <> []) by (intros E0; rewrite E0 in Eu; discriminate).
        specialize (Sp C Parked). lia.
      * apply sig_ok_u_none in Sg. congruence.
    + intros _ Hne. specialize (Dt C Hne). lia.
  - split; unfold len; cbn; auto. intros _ _. lia.
Qed.

(* A pusher that has left u_woken finds the queue full or makes it one longer. *)
Lemma push_out_SInv s u block uw w s' :
  SInv s -> length (u_woken s) <= S (length uw) -> push_out s u block uw w s' -> SInv s'.
Proof.
  intros [Sp Dt Cl] Huw [r Hr|w' q' E Sg|_ C L]; unfold len in *.
  - split; unfold len; cbn; auto. intros C D. destruct Hr as [[_ C']|(_ & _ & _ & L)]; [congruence|lia].
  - apply s_push_ok in E as [C C' _ Cap L _ _].
    split; unfold len; cbn; rewrite ?Cap; try congruence.
    + intros _ Hne. specialize (Sp C Hne). lia.
    + intros _ Hne. destruct w' as [j|].
      * cbn [length]. assert (Parked : data_wait s <> []) by (cbn in Sg; intros E0; rewrite E0 in Sg; discriminate).
        specialize (Dt C Parked). lia.
      * apply sig_ok_p_none in Sg. congruence.
  - split; unfold len; cbn; auto; [intros _ _; lia|congruence].
Qed.

Lemma step_SInv afl s a s' : QInv s -> SInv s -> step afl s a = Some s' -> SInv s'.
Proof.
  intros [_ _ _ Hd] I H. apply step_inv in H. pose proof I as [Sp Dt Cl]. unfold len in *.
  destruct a as [i w|i|i w|i|i|i x urgent block w|i w|].
  - destruct H as (_ & _ & H). eapply pop_out_SInv in H; [exact H|apply SInv_mark_used, I|]. cbn. lia.
  - destruct H as (Eh & ->). destruct (Hd i Eh) as [L C]. split; unfold len; cbn; [auto|lia|congruence].
  - destruct H as (_ & M & H). eapply pop_out_SInv in H; [exact H|exact I|]. apply Nat.eq_le_incl, eq_sym, srem_length, M.
  - destruct H as (_ & ->). now split.
  - destruct H as (_ & _ & ->). split; unfold len; cbn; [auto|congruence|].
    intros C. destruct (Cl C) as [-> _]. auto.
  - destruct H as (_ & _ & H). eapply push_out_SInv in H; [exact H|apply SInv_mark_used, I|]. cbn. lia.
  - destruct H as (_ & u & Eu & H). eapply push_out_SInv in H; [exact H|exact I|]. apply Nat.eq_le_incl, eq_sym, (urem_length _ _ _ Eu).
  - destruct H as (_ & ->). split; cbn; auto; congruence.
Qed.

(* No lost cancellation, when the AfterFunc takes the mutex: the registration of a popper that waits or
   holds the mutex follows [cancelled] exactly and has not run; that of a woken popper may have run, but only
   after its cancellation. *)
Definition af_live (s : st) (j : tid) : Prop :=
  aget j (af s) = Some (if memb j (cancelled s) then AFPending else AFArmed).
Definition af_wok (s : st) (j : tid) : Prop :=
  match aget j (af s) with
  | Some AFArmed => memb j (cancelled s) = false
  | Some AFPending | Some AFRan => memb j (cancelled s) = true
  | None => False
  end.
Definition waits (s : st) (j : tid) : Prop := memb j (data_wait s) = true \/ holder s = Some j.

Record AInv (s : st) : Prop := {
  ai_used : forall j, waits s j \/ memb j (p_woken s) = true -> memb j (used s) = true;
  ai_live : forall j, waits s j -> af_live s j;
  ai_wok  : forall j, memb j (p_woken s) = true -> af_wok s j
}.

Lemma AInv_init cap : AInv (init cap).
Proof. split; cbn; intros j H; repeat destruct H as [H|H]; discriminate. Qed.

Lemma live_wok s j : af_live s j -> af_wok s j.
Proof. unfold af_live, af_wok. intros ->. destruct (memb j (cancelled s)) eqn:E; reflexivity. Qed.

Lemma wok_armed s j : af_wok s j -> memb j (cancelled s) = false -> aget j (af s) = Some AFArmed.
Proof. unfold af_wok. intros W C. rewrite C in W. destruct (aget j (af s)) as [[]|]; try contradiction; congruence. Qed.

Lemma aget_cons_other i j a l : j <> i -> aget j ((i, a) :: l) = aget j l.
Proof. intros H. cbn [aget]. destruct (Nat.eqb_spec j i); [contradiction|reflexivity]. Qed.
Lemma aget_cons_same i a l : aget i ((i, a) :: l) = Some a.
Proof. cbn [aget]. now rewrite Nat.eqb_refl. Qed.

Local Arguments memb : simpl never.

(* AInv survives every step that leaves [cancelled] and the registrations of the parked threads
   alone, moves threads only from waiting to woken, and lets only a live one take the mutex. *)
Lemma AInv_transfer s s' :
  AInv s -> cancelled s' = cancelled s ->
  (forall j, memb j (used s) = true -> memb j (used s') = true) ->
  (forall j, waits s j \/ memb j (p_woken s) = true -> aget j (af s') = aget j (af s)) ->
  (forall j, memb j (data_wait s') = true -> waits s j) ->
  match holder s' with Some j => waits s j \/ memb j (used s') = true /\ af_live s' j | None => True end ->
  (forall j, memb j (p_woken s') = true -> waits s j \/ memb j (p_woken s) = true) ->
  AInv s'.
Proof.
  intros [U L W] Cn Hu Ha Hd Hh Hp.
  assert (Wk : forall j, waits s j \/ memb j (p_woken s) = true -> af_wok s' j).
  { intros j Hj. unfold af_wok. rewrite Cn, (Ha j Hj). destruct Hj as [Hj|Hj]; [apply live_wok, L, Hj|apply W, Hj]. }
  assert (Lv : forall j, waits s j -> af_live s' j).
  { intros j Hj. unfold af_live. rewrite Cn, Ha; auto. apply L, Hj. }
  split.
  - intros j [[Hj|Hj]|Hj].
    + apply Hu, U. left. apply Hd, Hj.
    + rewrite Hj in Hh. destruct Hh as [Hj'|[Uj _]]; [apply Hu, U; auto|exact Uj].
    + apply Hu, U, Hp, Hj.
  - intros j [Hj|Hj]; [apply Lv, Hd, Hj|]. rewrite Hj in Hh. destruct Hh as [Hj'|[_ Lj]]; auto.
  - intros j Hj. apply Wk, Hp, Hj.
Qed.

Lemma AInv_mark_used s i : AInv s -> AInv (mark_used s i).
Proof.
  intros I. apply (AInv_transfer s); unfold waits; cbn; auto.
  - intros j Hj. apply memb_cons_iff. auto.
  - destruct (holder s); auto.
Qed.

Lemma push_out_AInv s u block uw w s' : AInv s -> push_out s u block uw w s' -> AInv s'.
Proof.
  intros I [r _|[k|] q' _ Sg|_ _ _]; apply (AInv_transfer s); unfold waits; cbn; auto.
  - intros j Hj. left. eapply memb_srem_self_sub, Hj.
  - intros j [->|Hj]%memb_cons_iff; auto.
Qed.

Lemma pop_out_AInv s i afl pw w s' :
  AInv s -> memb i (used s) = true ->
  (forall j, memb j pw = true -> memb j (p_woken s) = true) ->
  (forall j, waits s j \/ memb j (p_woken s) = true -> aget j afl = aget j (af s)) ->
  (s_closed (q s) = false -> memb i (cancelled s) = false -> aget i afl = Some AFArmed) ->
  pop_out s i afl pw w s' -> AInv s'.
Proof.
  intros I Ui Hpw Ha Hi [r _|w' q' x _ _|C _ Mc]; apply (AInv_transfer s); unfold waits; cbn; auto.
  right. split; [exact Ui|]. unfold af_live. cbn. now rewrite Mc, Hi.
Qed.

Lemma step_AInv s a s' : AInv s -> step true s a = Some s' -> AInv s'.
Proof.
  intros I H. apply step_inv in H. pose proof I as [U L W].
  destruct a as [i w|i|i w|i|i|i x urgent block w|i w|].
  - destruct H as (_ & Nu & H). eapply pop_out_AInv in H; [exact H|apply AInv_mark_used, I|..]; cbn.
    + apply memb_cons_iff. auto.
    + auto.
    + intros j Hj. destruct (s_closed (q s)); [reflexivity|]. apply aget_cons_other. intros ->.
      rewrite (U i Hj) in Nu. discriminate.
    + intros -> ->. apply aget_cons_same.
  - destruct H as (Eh & ->). apply (AInv_transfer s); unfold waits; cbn; auto.
    intros j Hj. rewrite memb_app in Hj.
    apply orb_prop in Hj as [Hj|[->|Hj]%memb_cons_iff]; [left; exact Hj|right; exact Eh|discriminate].
  - destruct H as (_ & Mi & H). eapply pop_out_AInv in H; [exact H|exact I|..]; auto.
    + apply memb_srem_self_sub.
    + intros _. apply wok_armed, W, Mi.
  - (* Cancel flips i's registration from armed to pending together with its membership in [cancelled] *)
    destruct H as (Mc & E).
    assert (K : forall j, (af_live s j -> af_live s' j) /\ (af_wok s j -> af_wok s' j)).
    { intros j. unfold af_live, af_wok. rewrite E. cbn [af cancelled].
      change (memb j (i :: cancelled s)) with (Nat.eqb j i || memb j (cancelled s)).
      destruct (Nat.eqb_spec j i) as [->|Ne]; cbn [orb].
      - rewrite Mc. destruct (aget i (af s)) as [[]|] eqn:Ea; rewrite ?aget_cons_same, ?Ea; split; congruence.
      - destruct (aget i (af s)) as [[]|]; rewrite ?aget_cons_other by exact Ne; auto. }
    rewrite E in K |- *. split; cbn; [exact U|intros j Hj; apply K, L, Hj|intros j Hj; apply K, W, Hj].
  - (* AFRun, with the mutex: nobody is left waiting, and i was cancelled *)
    destruct H as (Ea & Hn & ->). specialize (Hn eq_refl). split; unfold waits; cbn; rewrite ?Hn.
    + intros j [[Hj|Hj]|Hj]; try discriminate. rewrite memb_app in Hj. apply orb_prop in Hj as [Hj|Hj]; apply U; auto.
      left; left; exact Hj.
    + intros j [Hj|Hj]; discriminate.
    + intros j Hj. rewrite memb_app in Hj.
      assert (Wj : af_wok s j) by (apply orb_prop in Hj as [Hj|Hj]; [apply live_wok, L; left; exact Hj|apply W, Hj]).
      unfold af_wok in *. cbn [af cancelled]. destruct (Nat.eqb_spec j i) as [->|Ne].
      * rewrite aget_cons_same. now rewrite Ea in Wj.
      * now rewrite aget_cons_other.
  - destruct H as (_ & _ & H). exact (push_out_AInv _ _ _ _ _ _ (AInv_mark_used _ i I) H).
  - destruct H as (_ & u & _ & H). exact (push_out_AInv _ _ _ _ _ _ I H).
  - destruct H as (_ & ->). apply (AInv_transfer s); unfold waits; cbn; auto; [discriminate|].
    intros j Hj. rewrite memb_app in Hj. apply orb_prop in Hj as [Hj|Hj]; auto.
Qed.

Record invariants (afl : bool) (s : st) : Prop := {
  inv_Q : QInv s;
  inv_S : SInv s;
  inv_A : afl = true -> AInv s
}.

Theorem reachable_invariants afl cap l s : run afl (init cap) l = Some s -> invariants afl s.
Proof.
  apply (run_invariant (step afl) (run afl) (fun _ => eq_refl) (fun _ _ _ => eq_refl) (invariants afl)).
  - intros s0 a s' [Q S A] H. split.
    + exact (step_QInv _ _ _ _ Q H).
    + exact (step_SInv _ _ _ _ Q S H).
    + intros ->. exact (step_AInv _ _ _ (A eq_refl) H).
  - split; [apply QInv_init | apply SInv_init | intros _; apply AInv_init].
Qed.

Theorem bounded afl cap l s : run afl (init cap) l = Some s -> len s <= s_cap (q s).
Proof. intros R. apply (qi_bound _ (inv_Q _ _ (reachable_invariants _ _ _ _ R))). Qed.

(* with the mutex around the AfterFunc's Broadcast, a cancelled popper that waits or is about to
   still has its callback pending *)
Lemma cancelled_waiter_pending cap l s i :
  run true (init cap) l = Some s -> waits s i -> memb i (cancelled s) = true -> aget i (af s) = Some AFPending.
Proof.
  intros R D C. pose proof (ai_live _ (inv_A _ _ (reachable_invariants _ _ _ _ R) eq_refl) i D) as L.
  unfold af_live in L. now rewrite C in L.
Qed.

Theorem no_lost_cancel cap l s i :
  run true (init cap) l = Some s ->
  memb i (data_wait s) = true -> memb i (cancelled s) = true -> aget i (af s) = Some AFPending.
Proof. intros R D. apply (cancelled_waiter_pending _ _ _ _ R). now left. Qed.

Theorem no_lost_cancel_holder cap l s i :
  run true (init cap) l = Some s ->
  holder s = Some i -> memb i (cancelled s) = true -> aget i (af s) = Some AFPending.
Proof. intros R D. apply (cancelled_waiter_pending _ _ _ _ R). now right. Qed.

Theorem cancel_progress cap l s i :
  run true (init cap) l = Some s -> holder s = None ->
  memb i (data_wait s) = true -> memb i (cancelled s) = true ->
  exists s1, step true s (AFRun i) = Some s1 /\ memb i (p_woken s1) = true /\ data_wait s1 = [].
Proof.
  intros R Hn D C. pose proof (no_lost_cancel _ _ _ _ R D C) as A.
  cbn [step]. rewrite A. unfold free. rewrite Hn. cbn [negb orb].
  eexists; split; [reflexivity|]. cbn. rewrite memb_app, D. auto.
Qed.

Theorem relock_cancelled_returns afl s i w s' :
  memb i (cancelled s) = true -> step afl s (PopRelock i w) = Some s' ->
  exists r, results s' = (i, r) :: results s.
Proof.
  intros C H. apply step_inv in H as (_ & _ & [r _|w' q' x _ _|_ _ Mc]); cbn; eauto. congruence.
Qed.

(* linearizability: every step applies at most one operation of the sequential specification to
   the queue, at a single point, and the result it records is that operation's result *)
Definition refines (s s' : st) : Prop :=
  (q s' = q s /\ (results s' = results s \/ exists i r, results s' = (i, r) :: results s /\
                   (r = RCancelled \/ r = RClosed /\ s_closed (q s) = true \/ r = RPanic /\ s_closed (q s) = true
                    \/ r = RFull /\ exists x u, s_push (q s) x u = (q s, RFull))))
  \/ (exists i x, s_pop (q s) = (q s', RItem x) /\ results s' = (i, RItem x) :: results s)
  \/ (exists i x u, s_push (q s) x u = (q s', ROk) /\ results s' = (i, ROk) :: results s)
  \/ (q s' = s_close (q s) /\ results s' = results s).

Lemma pop_out_refines s i afl pw w s' : pop_out s i afl pw w s' -> refines s s'.
Proof.
  intros [r Hr|w' q' x E _|_ _ _]; [left|right; left|left]; cbn; eauto.
  split; [reflexivity|]. right. exists i, r. split; [reflexivity|]. destruct Hr as [[-> C]|[-> _]]; auto.
Qed.

Lemma push_out_refines s u block uw w s' : push_out s u block uw w s' -> refines s s'.
Proof.
  intros [r Hr|w' q' E _|_ _ _]; [left|right; right; left|left]; cbn; eauto.
  split; [reflexivity|]. right. exists (u_id u), r. split; [reflexivity|].
  destruct Hr as [[-> C]|(-> & _ & C & L)]; [auto|]. do 3 right. split; [reflexivity|].
  exists (u_item u), (u_urgent u). unfold s_push. now rewrite C, L, Nat.eqb_refl.
Qed.

Theorem step_refines_spec afl s a s' : step afl s a = Some s' -> refines s s'.
Proof.
  intros H. apply step_inv in H.
  destruct a as [i w|i|i w|i|i|i x urgent block w|i w|].
  - destruct H as (_ & _ & H). exact (pop_out_refines _ _ _ _ _ _ H).
  - destruct H as (_ & ->). left. cbn. auto.
  - destruct H as (_ & _ & H). exact (pop_out_refines _ _ _ _ _ _ H).
  - destruct H as (_ & ->). left. cbn. auto.
  - destruct H as (_ & _ & ->). left. cbn. auto.
  - destruct H as (_ & _ & H). exact (push_out_refines _ _ _ _ _ _ H).
  - destruct H as (_ & u & _ & H). exact (push_out_refines _ _ _ _ _ _ H).
  - destruct H as (_ & ->). do 3 right. cbn. auto.
Qed.

Theorem cap_const afl s a s' : step afl s a = Some s' -> s_cap (q s') = s_cap (q s).
Proof.
  intros [[-> _]|[(i & x & E & _)|[(i & x & u & E & _)|[-> _]]]]%step_refines_spec; try reflexivity.
  - exact (pi_cap _ _ _ (s_pop_item _ _ _ E)).
  - exact (pu_cap _ _ _ _ (s_push_ok _ _ _ _ E)).
Qed.

(* without the mutex around the AfterFunc's Broadcast a cancellation can be lost for good *)
Definition lost_cancel_schedule : list action := [PopBegin 1 None; Cancel 1; AFRun 1; PopWait 1].
Theorem lost_cancel_without_lock :
  exists s, run false (init 1) lost_cancel_schedule = Some s
            /\ memb 1 (data_wait s) = true /\ memb 1 (cancelled s) = true
            /\ aget 1 (af s) = Some AFRan /\ p_woken s = [] /\ holder s = None.
Proof. eexists. vm_compute. repeat split. Qed.
Theorem lost_cancel_schedule_impossible_with_lock : run true (init 1) lost_cancel_schedule = None.
Proof. vm_compute. reflexivity. Qed.
