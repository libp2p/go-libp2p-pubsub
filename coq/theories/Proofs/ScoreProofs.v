(* Model.Score over exact rationals (QA): every counter stays within the bounds of its topic's parameters along all
   histories (SInv), and what the components of the score function, the decay and the retention rule guarantee. *)
From Coq Require Import List QArith Lia Lqa.
Import ListNotations.
From PS Require Import Model.Router Model.Score Proofs.SetMapProofs Proofs.ListFacts.

Definition Qltb (x y : Q) : bool := negb (Qle_bool y x).
Lemma Qltb_lt x y : Qltb x y = true <-> x < y.
Proof.
  unfold Qltb. rewrite negb_true_iff, <- not_true_iff_false, Qle_bool_iff. split; [apply Qnot_le_lt | apply Qlt_not_le].
Qed.
Lemma Qltb_ge x y : Qltb x y = false <-> y <= x.
Proof.
  unfold Qltb. rewrite negb_false_iff. apply Qle_bool_iff.
Qed.

Definition QA : arith :=
  {| F := Q; f0 := 0; f1 := 1; fadd := Qplus; fsub := Qminus; fmul := Qmult; fltb := Qltb; fofZ := inject_Z |}.

Notation tparamsQ := (tparams QA).
Notation sparamsQ := (sparams QA).
Notation tstatsQ := (tstats QA).
Notation pstatsQ := (pstats QA).
Notation sstateQ := (sstate QA).

(* what validate() guarantees of a topic parameter set whose components are specified (for a component
   with weight zero validate() leaves cap and decay unconstrained: see DESIGN.md) *)
Record tp_ok (tp : tparamsQ) : Prop := {
  ok_fc : 0 <= tpFMDCap QA tp; ok_mc : 0 <= tpMMDCap QA tp;
  ok_fd : 0 <= tpFMDDecay QA tp <= 1; ok_md : 0 <= tpMMDDecay QA tp <= 1;
  ok_pd : 0 <= tpMFPDecay QA tp <= 1; ok_id : 0 <= tpIMDDecay QA tp <= 1;
  ok_tw : 0 <= tpTopicWeight QA tp;
  ok_timw : 0 <= tpTIMWeight QA tp; ok_timc : 0 <= tpTIMCap QA tp; ok_fw : 0 <= tpFMDWeight QA tp;
  ok_mw : tpMMDWeight QA tp <= 0; ok_pw : tpMFPWeight QA tp <= 0; ok_iw : tpIMDWeight QA tp <= 0
}.
Record sp_ok (P : sparamsQ) : Prop := {
  ok_topics : forall t tp, aget t (spTopics QA P) = Some tp -> tp_ok tp;
  ok_bd : 0 <= spBPDecay QA P <= 1; ok_dz : 0 <= spDecayToZero QA P;
  ok_ipw : spIPWeight QA P <= 0; ok_bw : spBPWeight QA P <= 0; ok_bt : 0 <= spBPThreshold QA P
}.

(* the bounds of one topic's counters under that topic's parameters; a peer's entry is in order when every topic it
   has counters for is scored and within these bounds *)
Definition tsb (tp : tparamsQ) (ts : tstatsQ) : Prop :=
  0 <= fmd QA ts <= tpFMDCap QA tp /\ 0 <= mmd QA ts <= tpMMDCap QA tp /\ 0 <= imd QA ts /\ 0 <= mfp QA ts.
Definition ts_ok (P : sparamsQ) (te : topic * tstatsQ) : Prop :=
  exists tp, aget (fst te) (spTopics QA P) = Some tp /\ tsb tp (snd te).
Definition ps_ok (P : sparamsQ) (ps : pstatsQ) : Prop := 0 <= bp QA ps /\ Forall (ts_ok P) (topics QA ps).
Definition SInv (s : sstateQ) : Prop := sp_ok (prm QA s) /\ Forall (fun e => ps_ok (prm QA s) (snd e)) (pst QA s).

(* the operations of QA written as those of Q, which is how lra and nra read them *)
Ltac qa := cbn [fadd fsub fmul fltb f0 f1 fofZ QA F] in *.

Lemma cap_at_spec (x c : Q) : 0 <= c -> 0 <= x -> 0 <= cap_at QA x c <= c.
Proof. intros Hc Hx. unfold cap_at. qa. destruct (Qltb c x) eqn:E; [|apply Qltb_ge in E]; lra. Qed.
Lemma cap_at_le (x c : Q) : cap_at QA x c <= x.
Proof. unfold cap_at. qa. destruct (Qltb c x) eqn:E; [apply Qltb_lt in E; lra | lra]. Qed.
Lemma decay0_spec (x d z : Q) : 0 <= x -> 0 <= d <= 1 -> 0 <= decay0 QA x d z <= x.
Proof. intros Hx Hd. unfold decay0. qa. destruct (Qltb (x * d) z); [lra | nra]. Qed.
Lemma sticky_nonneg tp ts b : 0 <= mfp QA ts -> 0 <= sticky QA tp ts b.
Proof.
  intros H. unfold sticky. qa. match goal with |- 0 <= (if ?c then _ else _) => destruct c end; [|exact H].
  set (d := tpMMDThreshold QA tp - mmd QA ts). nra.
Qed.

Lemma SInv_peer (s : sstateQ) p ps : SInv s -> aget p (pst QA s) = Some ps -> ps_ok (prm QA s) ps.
Proof. intros [_ Hl]. exact (Forall_aget _ _ _ _ Hl). Qed.

Lemma set_peer_ok (s : sstateQ) p ps : SInv s -> ps_ok (prm QA s) ps -> SInv (set_pst QA s (aset p ps (pst QA s))).
Proof. intros [HP Hl] H. split; [exact HP | apply Forall_aset; assumption]. Qed.

Lemma with_peer_ok (s : sstateQ) p (f : pstatsQ -> pstatsQ) :
  SInv s -> (forall ps, ps_ok (prm QA s) ps -> ps_ok (prm QA s) (f ps)) -> SInv (with_peer QA s p f).
Proof.
  intros HI Hf. unfold with_peer. destruct (aget p (pst QA s)) as [ps|] eqn:E; [|exact HI].
  apply set_peer_ok; [exact HI|]. apply Hf, (SInv_peer _ _ _ HI E).
Qed.

(* f is also applied to fresh counters when the topic is scored and new to the peer: hence [tp_ok tp] *)
Lemma upd_topic_ok (s : sstateQ) p t (f : tstatsQ -> tstatsQ) :
  SInv s -> (forall tp ts, aget t (spTopics QA (prm QA s)) = Some tp -> tp_ok tp -> tsb tp ts -> tsb tp (f ts)) ->
  SInv (with_peer QA s p (fun ps => upd_topic QA ps t f (prm QA s))).
Proof.
  intros HI Hf. apply with_peer_ok; [exact HI|]. intros ps [Hb Ht]. destruct HI as [HP _]. unfold upd_topic.
  destruct (aget t (topics QA ps)) as [ts|] eqn:E.
  - destruct (Forall_aget _ _ _ _ Ht E) as (tp & Et & B). split; [exact Hb|]. apply Forall_aset; [exact Ht|].
    exists tp. split; [exact Et|]. apply Hf; [exact Et | apply (ok_topics _ HP _ _ Et) | exact B].
  - destruct (aget t (spTopics QA (prm QA s))) as [tp|] eqn:Et; [|split; assumption].
    split; [exact Hb|]. apply Forall_aset; [exact Ht|]. exists tp. split; [exact Et|].
    assert (Htp := ok_topics _ HP _ _ Et). apply Hf; [reflexivity | exact Htp|]. pose proof (ok_fc _ Htp). pose proof (ok_mc _ Htp). unfold tsb. cbn [tstats0 fmd mmd imd mfp f0 QA]. lra.
Qed.

Lemma map_topics_ok P (g : topic * tstatsQ -> topic * tstatsQ) l :
  (forall t ts tp, aget t (spTopics QA P) = Some tp -> tsb tp ts -> ts_ok P (g (t, ts))) ->
  Forall (ts_ok P) l -> Forall (ts_ok P) (map g l).
Proof. intros Hg H. apply Forall_map. revert H. apply Forall_impl. intros [t ts] (tp & E & B). apply (Hg t ts tp E B). Qed.

Lemma SInv_get_rec s i : SInv s -> SInv (fst (get_rec QA s i)).
Proof. intros H. unfold get_rec. destruct (aget i (recs QA s)); exact H. Qed.

(* exposes the bounds of [tsb] on both sides of a counter update, for lra *)
Ltac counters := unfold tsb, set_ts in *; cbn [fmd mmd imd mfp fst snd]; qa.

Lemma mark_invalid_ok s p t : SInv s -> SInv (mark_invalid QA s p t).
Proof. intros HI. apply upd_topic_ok; [exact HI|]. intros tp ts _ _ B. counters. lra. Qed.

Lemma mark_first_ok s p t : SInv s -> SInv (mark_first QA s p t).
Proof.
  intros HI. unfold mark_first, tp_of. destruct (aget t (spTopics QA (prm QA s))) as [tp|] eqn:Et; [|exact HI].
  apply upd_topic_ok; [exact HI|]. intros tp' ts E Htp B. rewrite Et in E. injection E as <-. counters.
  pose proof (cap_at_spec (fmd QA ts + 1) (tpFMDCap QA tp) (ok_fc _ Htp)).
  pose proof (cap_at_spec (mmd QA ts + 1) (tpMMDCap QA tp) (ok_mc _ Htp)).
  destruct (inMesh QA ts); lra.
Qed.

Lemma mark_duplicate_ok s p t v : SInv s -> SInv (mark_duplicate QA s p t v).
Proof.
  intros HI. unfold mark_duplicate, tp_of. destruct (aget t (spTopics QA (prm QA s))) as [tp|] eqn:Et; [|exact HI].
  apply upd_topic_ok; [exact HI|]. intros tp' ts E Htp B. rewrite Et in E. injection E as <-.
  destruct (negb (inMesh QA ts)); [exact B|]. match goal with |- tsb _ (if ?c then _ else _) => destruct c end; [exact B|].
  counters. pose proof (cap_at_spec (mmd QA ts + 1) (tpMMDCap QA tp) (ok_mc _ Htp)). lra.
Qed.

(* what the operations of a history must satisfy: new topic parameters are valid, penalties are non-negative counts *)
Definition op_ok (o : sop QA) : Prop :=
  match o with
  | SSetTopic _ _ tp => tp_ok tp
  | SPenalty _ _ n => (0 <= n)%Z
  | _ => True
  end.

(* the two cases of SRemovePeer: the peer is forgotten, or retained with its first deliveries reset and its mesh
   failure penalty made sticky (a sum of nonnegative terms: sticky_nonneg) *)
Lemma remove_peer_ok s p app s' : SInv s -> sstep QA s (SRemovePeer QA p app) = Some s' -> SInv s'.
Proof.
  intros HI H. cbn [sstep] in H. destruct (aget p (pst QA s)) as [ps|] eqn:E; [|injection H as <-; exact HI].
  destruct (fltb QA (f0 QA) (score_of_stats QA s app ps)); injection H as <-.
  - split; [apply HI|]. apply (incl_Forall (incl_filter _ _)), HI.
  - apply set_peer_ok; [exact HI|]. destruct (SInv_peer _ _ _ HI E) as [A B]. split; [exact A|]. cbn [topics].
    revert B. apply map_topics_ok. intros t ts tp Et B. exists tp. cbn [fst snd]. rewrite Et. split; [reflexivity|].
    pose proof (sticky_nonneg tp ts true). counters. lra.
Qed.

(* the cases of SRefresh: expired entries go, those of connected peers decay (decay0 keeps a counter in its range) *)
Lemma refresh_ok s s' : SInv s -> sstep QA s (SRefresh QA) = Some s' -> SInv s'.
Proof.
  intros [HP Hl] H. injection H as <-. split; [exact HP|]. cbn [pst set_pst prm].
  apply Forall_map. apply (incl_Forall (incl_filter _ _)). revert Hl. apply Forall_impl. intros [p ps] [A B]. cbn [fst snd] in *.
  destruct (connected QA ps); cbn [negb snd]; [|split; assumption]. split.
  - apply decay0_spec; [exact A | apply HP].
  - revert B. apply map_topics_ok. intros t ts tp Et B. cbn [fst snd]. rewrite Et. exists tp. split; [exact Et|].
    assert (Htp := ok_topics _ HP _ _ Et). set (z := spDecayToZero QA (prm QA s)). destruct B as (Bf & Bm & Bi & Bp).
    pose proof (decay0_spec _ _ z (proj1 Bf) (ok_fd _ Htp)). pose proof (decay0_spec _ _ z (proj1 Bm) (ok_md _ Htp)).
    pose proof (decay0_spec _ _ z Bi (ok_id _ Htp)). pose proof (decay0_spec _ _ z Bp (ok_pd _ Htp)).
    counters. lra.
Qed.

(* parameters P' that differ from P by new ones, tp, for topic t: an entry of another topic may stay as it is, one of t
   has to be within the bounds of tp *)
Lemma ts_ok_set_topic (P P' : sparamsQ) t tp u ts ts' :
  spTopics QA P' = aset t tp (spTopics QA P) -> ts_ok P (u, ts) ->
  (if Nat.eqb u t then forall old, aget t (spTopics QA P) = Some old -> tsb old ts -> tsb tp ts' else ts' = ts) ->
  ts_ok P' (u, ts').
Proof.
  intros EP' (tpu & E & B) Hc. unfold ts_ok. cbn [fst snd] in *. rewrite EP', aget_aset.
  destruct (Nat.eqb_spec u t) as [->|].
  - exists tp. split; [reflexivity | exact (Hc tpu E B)].
  - subst ts'. exists tpu. split; assumption.
Qed.

(* the counters of t are within the new caps because these did not shrink, or because the counters were capped again *)
Lemma set_topic_ok s t tp s' : SInv s -> tp_ok tp -> sstep QA s (SSetTopic QA t tp) = Some s' -> SInv s'.
Proof.
  intros [HP Hl] Hop H. cbn [sstep] in H.
  match type of H with context [Build_sstate QA ?X] => set (P' := X) in * end.
  assert (EP' : spTopics QA P' = aset t tp (spTopics QA (prm QA s))) by reflexivity.
  assert (HP' : sp_ok P').
  { destruct HP as [Htopics]. constructor; try assumption. intros u tpu. rewrite EP', aget_aset.
    destruct (Nat.eqb u t); [intros [= <-]; exact Hop | apply Htopics]. }
  assert (Keep : (forall old ts, aget t (spTopics QA (prm QA s)) = Some old -> tsb old ts -> tsb tp ts) ->
                 Forall (fun e => ps_ok P' (snd e)) (pst QA s)).
  { intros Hc. revert Hl. apply Forall_impl. intros [p ps] [A B]. split; [exact A|]. revert B. apply Forall_impl.
    intros [u ts] Hu. apply (ts_ok_set_topic _ _ _ _ _ _ _ EP' Hu). destruct (Nat.eqb u t); [intros old; apply Hc | reflexivity]. }
  destruct (aget t (spTopics QA (prm QA s))) as [old|] eqn:Eo;
    [destruct (fltb QA (tpFMDCap QA tp) (tpFMDCap QA old) || fltb QA (tpMMDCap QA tp) (tpMMDCap QA old)) eqn:Erecap|];
    injection H as <-; (split; [exact HP'|]); cbn [pst set_pst prm].
  - apply Forall_map. revert Hl. apply Forall_impl. intros [p ps] [A B]. split; [exact A|]. cbn [snd topics]. apply Forall_map.
    revert B. apply Forall_impl. intros [u ts] Hu. cbn [fst snd].
    destruct (Nat.eqb u t) eqn:Eu; apply (ts_ok_set_topic _ _ _ _ _ _ _ EP' Hu); rewrite Eu; [|reflexivity].
    intros old' _ B. pose proof (cap_at_spec (fmd QA ts) (tpFMDCap QA tp) (ok_fc _ Hop)).
    pose proof (cap_at_spec (mmd QA ts) (tpMMDCap QA tp) (ok_mc _ Hop)). counters. lra.
  - apply Keep. intros old' ts [= <-] B. apply orb_false_iff in Erecap. destruct Erecap as [E1 E2]. qa. apply Qltb_ge in E1, E2.
    unfold tsb in *. lra.
  - apply Keep. discriminate.
Qed.

Lemma SInv_step s o s' : SInv s -> op_ok o -> sstep QA s o = Some s' -> SInv s'.
Proof.
  intros HI Hop H. destruct o as [p|p app|p t|p t|i|i from t|i from t r|i from t|p n| | |t tp|p l|d]; cbn [sstep] in H.
  - (* AddPeer *)
    destruct (aget p (pst QA s)) as [ps|] eqn:E; injection H as <-; apply set_peer_ok; try exact HI;
      [exact (SInv_peer _ _ _ HI E) | split; [cbn; lra | constructor]].
  - exact (remove_peer_ok _ _ _ _ HI H).
  - (* Graft *)
    injection H as <-. apply upd_topic_ok; [exact HI|]. intros tp ts _ _ B. exact B.
  - (* Prune *)
    unfold tp_of in H. destruct (aget t (spTopics QA (prm QA s))) as [tp|] eqn:Et; injection H as <-; [|exact HI].
    apply upd_topic_ok; [exact HI|]. intros tp' ts _ _ B. pose proof (sticky_nonneg tp ts false). counters. lra.
  - (* Validate *)
    injection H as <-. apply SInv_get_rec, HI.
  - (* Deliver *)
    assert (H2 := SInv_get_rec _ i (mark_first_ok s from t HI)). destruct (get_rec QA (mark_first QA s from t) i) as [s2 r].
    destruct (dstat r); injection H as <-; try exact H2.
    apply fold_left_inv; [|exact H2]. intros st q _ Hst. destruct (Nat.eqb q from); [exact Hst | apply mark_duplicate_ok, Hst].
  - (* Reject *)
    assert (H2 := SInv_get_rec _ i HI). destruct (get_rec QA s i) as [s2 rc].
    destruct r; [injection H as <-; apply mark_invalid_ok, HI | injection H as <-; exact HI ..| | |];
      destruct (dstat rc); injection H as <-; try exact H2.
    apply fold_left_inv; [intros st q _; apply mark_invalid_ok | apply mark_invalid_ok, H2].
  - (* Duplicate *)
    assert (H2 := SInv_get_rec _ i HI). destruct (get_rec QA s i) as [s2 rc].
    destruct (memb from (dpeers rc)); [injection H as <-; exact H2|].
    destruct (dstat rc); injection H as <-; try exact H2; [apply mark_duplicate_ok | apply mark_invalid_ok]; exact H2.
  - (* Penalty *)
    injection H as <-. apply with_peer_ok; [exact HI|]. intros ps [A B]. split; [|exact B]. cbn [bp]. qa.
    cbn in Hop. rewrite Zle_Qle in Hop. change (inject_Z 0) with 0 in Hop. lra.
  - exact (refresh_ok _ _ HI H).
  - (* Gc *)
    injection H as <-. exact HI.
  - exact (set_topic_ok _ _ _ _ HI Hop H).
  - (* SetIPs *)
    injection H as <-. apply with_peer_ok; [exact HI|]. intros ps Hps. exact Hps.
  - (* Advance *)
    destruct (d <? 0)%Z; [discriminate|]. injection H as <-. exact HI.
Qed.

Fixpoint ops_ok (l : list (sop QA)) : Prop := match l with [] => True | o :: l' => op_ok o /\ ops_ok l' end.

Theorem SInv_run l : forall s s', SInv s -> ops_ok l -> srun QA s l = Some s' -> SInv s'.
Proof.
  induction l as [|o l IH]; intros s s' HI Hops H; cbn in H; [injection H as <-; exact HI|].
  destruct Hops as [Ho Hl]. destruct (sstep QA s o) as [s1|] eqn:E; [|discriminate].
  eapply IH; [eapply SInv_step; eassumption | exact Hl | exact H].
Qed.

Lemma SInv_init P : sp_ok P -> SInv (sinit QA P).
Proof. intros H. split; [exact H | constructor]. Qed.

Theorem counters_bounded P l s p ps t ts :
  sp_ok P -> ops_ok l -> srun QA (sinit QA P) l = Some s ->
  In (p, ps) (pst QA s) -> In (t, ts) (topics QA ps) ->
  0 <= bp QA ps /\ 0 <= fmd QA ts /\ 0 <= mmd QA ts /\ 0 <= imd QA ts /\ 0 <= mfp QA ts
  /\ exists tp, aget t (spTopics QA (prm QA s)) = Some tp /\ fmd QA ts <= tpFMDCap QA tp /\ mmd QA ts <= tpMMDCap QA tp.
Proof.
  intros HP Hops Hrun Hp Ht. destruct (SInv_run l _ _ (SInv_init P HP) Hops Hrun) as [_ Hl].
  rewrite Forall_forall in Hl. destruct (Hl _ Hp) as [A B]. rewrite Forall_forall in B. destruct (B _ Ht) as (tp & E & C).
  unfold tsb in C. repeat (split; [tauto|]). exists tp. tauto.
Qed.

Theorem p7_nonpositive (P : sparamsQ) (b : Q) : sp_ok P -> p7 QA P b <= 0.
Proof.
  intros H. pose proof (ok_bw _ H). unfold p7. qa. destruct (Qltb (spBPThreshold QA P) b); [|lra].
  set (e := b - spBPThreshold QA P). nra.
Qed.
Lemma ip_factor_nonneg (s : sstateQ) ps : 0 <= ip_factor QA s ps.
Proof.
  unfold ip_factor. apply fold_left_inv; qa; [|lra]. intros acc ip _ Ha.
  destruct (Nat.ltb _ _); [|exact Ha]. cbn zeta. set (sp := inject_Z _). nra.
Qed.
Theorem p6_nonpositive (s : sstateQ) ps : sp_ok (prm QA s) -> ip_factor QA s ps * spIPWeight QA (prm QA s) <= 0.
Proof. intros H. pose proof (ok_ipw _ H). pose proof (ip_factor_nonneg s ps). nra. Qed.

(* the topic score with every penalty counter at zero dominates the topic score: penalties only lower it *)
Definition no_penalties (ts : tstatsQ) : tstatsQ :=
  set_ts QA ts (inMesh QA ts) (graftTime QA ts) (meshTime QA ts) (fmd QA ts) (mmd QA ts) false 0 0.
Theorem topic_penalties_only_lower (tp : tparamsQ) (ts : tstatsQ) :
  tp_ok tp -> 0 <= mfp QA ts -> topic_score QA tp ts <= topic_score QA tp (no_penalties ts).
Proof.
  intros Htp Hm. pose proof (ok_mw _ Htp). pose proof (ok_pw _ Htp). pose proof (ok_iw _ Htp).
  unfold topic_score, no_penalties, set_ts. cbn [inMesh meshTime fmd mmd mmdActive mfp imd andb]. qa.
  set (d := tpMMDThreshold QA tp - mmd QA ts). destruct (mmdActive QA ts && Qltb (mmd QA ts) (tpMMDThreshold QA tp)); nra.
Qed.

Theorem p1_quantised_and_capped (tp : tparamsQ) (mt : Z) :
  tp_ok tp -> (0 < tpTIMQuantum QA tp)%Z -> (0 <= mt)%Z ->
  let p1 := cap_at QA (inject_Z (Z.quot mt (tpTIMQuantum QA tp))) (tpTIMCap QA tp) in
  0 <= p1 /\ p1 <= tpTIMCap QA tp /\ p1 <= inject_Z (Z.quot mt (tpTIMQuantum QA tp))
  /\ (inject_Z (Z.quot mt (tpTIMQuantum QA tp)) * inject_Z (tpTIMQuantum QA tp) <= inject_Z mt).
Proof.
  intros H Hq Hm p1.
  assert (Hz : (0 <= Z.quot mt (tpTIMQuantum QA tp))%Z) by (apply Z.quot_pos; lia).
  assert (Hz' : 0 <= inject_Z (Z.quot mt (tpTIMQuantum QA tp))) by (change 0 with (inject_Z 0); rewrite <- Zle_Qle; exact Hz).
  destruct (cap_at_spec (inject_Z (Z.quot mt (tpTIMQuantum QA tp))) (tpTIMCap QA tp) (ok_timc _ H) Hz') as [A B].
  split; [exact A|]. split; [exact B|]. split; [apply cap_at_le|].
  rewrite <- inject_Z_mult, <- Zle_Qle. rewrite Z.mul_comm. apply Z.mul_quot_le; lia.
Qed.

(* decay with decay-to-zero never raises a counter, and snaps to exactly zero below the threshold *)
Theorem decay_to_zero (x d z : Q) : 0 <= x -> 0 <= d <= 1 ->
  0 <= decay0 QA x d z <= x /\ (x * d < z -> decay0 QA x d z == 0) /\ (z <= x * d -> decay0 QA x d z == x * d).
Proof.
  intros Hx Hd. split; [apply decay0_spec; assumption|]. unfold decay0. qa. split; intros H.
  - apply Qltb_lt in H. rewrite H. reflexivity.
  - apply Qltb_ge in H. rewrite H. reflexivity.
Qed.

(* a duplicate that arrives after the delivery window of a validated message leaves the counters as they are *)
Theorem duplicate_outside_window_ignored (s : sstateQ) p t v tp :
  aget t (spTopics QA (prm QA s)) = Some tp -> (tpMMDWindow QA tp < snow QA s - v)%Z ->
  forall ps, aget p (pst QA s) = Some ps -> forall ts, aget t (topics QA ps) = Some ts ->
  exists ps', aget p (pst QA (mark_duplicate QA s p t (Some v))) = Some ps' /\ aget t (topics QA ps') = Some ts.
Proof.
  intros Et Hw ps Ep ts Ets. unfold mark_duplicate, tp_of. rewrite Et. unfold with_peer. rewrite Ep. cbn [pst set_pst].
  rewrite aget_aset_same. eexists. split; [reflexivity|]. unfold upd_topic. rewrite Ets. cbn [topics]. rewrite aget_aset_same.
  destruct (negb (inMesh QA ts)); [reflexivity|]. apply Z.ltb_lt in Hw. rewrite Hw. reflexivity.
Qed.

(* retention: on disconnect an entry with a positive score is dropped (the statement's second alternative for that
   case never occurs: the proof always takes the first), any other is kept (disconnected, expiring
   after the retention period, first-delivery counters reset, out of every mesh); a reconnect keeps what was retained *)
Theorem retention_rule (s : sstateQ) p app ps s' :
  aget p (pst QA s) = Some ps -> sstep QA s (SRemovePeer QA p app) = Some s' ->
  (0 < score_of_stats QA s app ps -> aget p (pst QA s') = None \/ exists ps', aget p (pst QA s') = Some ps' /\ In (p, ps') (adel p (pst QA s)))
  /\ (score_of_stats QA s app ps <= 0 ->
        exists ps', aget p (pst QA s') = Some ps' /\ connected QA ps' = false /\ expire QA ps' = (snow QA s + spRetain QA (prm QA s))%Z
                    /\ bp QA ps' = bp QA ps
                    /\ forall t ts', In (t, ts') (topics QA ps') -> fmd QA ts' == 0 /\ inMesh QA ts' = false).
Proof.
  intros Ep H. cbn [sstep] in H. rewrite Ep in H. qa.
  destruct (Qltb 0 (score_of_stats QA s app ps)) eqn:E; injection H as <-; cbn [pst set_pst].
  - apply Qltb_lt in E. split; [|intros Hle; lra]. intros _. left. rewrite aget_adel, Nat.eqb_refl. reflexivity.
  - apply Qltb_ge in E. split; [intros Hlt; lra|]. intros _. rewrite aget_aset_same. eexists. split; [reflexivity|].
    cbn [connected expire bp topics]. do 3 (split; [reflexivity|]). intros t ts' Hin.
    apply in_map_iff in Hin as ([t0 ts] & [= _ <-] & _). split; reflexivity.
Qed.

Theorem reconnect_keeps_retained (s : sstateQ) p ps s' :
  aget p (pst QA s) = Some ps -> sstep QA s (SAddPeer QA p) = Some s' ->
  exists ps', aget p (pst QA s') = Some ps' /\ connected QA ps' = true /\ topics QA ps' = topics QA ps /\ bp QA ps' = bp QA ps.
Proof.
  intros Ep H. cbn [sstep] in H. rewrite Ep in H. injection H as <-. cbn [pst set_pst]. rewrite aget_aset_same.
  eexists. split; [reflexivity|]. auto.
Qed.

(* retained entries are neither decayed nor dropped before their expiry, and dropped after it *)
Theorem refresh_retained (s : sstateQ) p ps s' :
  In (p, ps) (pst QA s) -> connected QA ps = false -> sstep QA s (SRefresh QA) = Some s' ->
  ((expire QA ps < snow QA s)%Z -> ~ In (p, ps) (pst QA s'))
  /\ ((snow QA s <= expire QA ps)%Z -> In (p, ps) (pst QA s')).
Proof.
  intros Hin Hc H. injection H as <-. cbn [pst set_pst]. split.
  - intros Hlt Hin'. apply in_map_iff in Hin' as ([p0 ps0] & Heq & Hk). apply filter_In in Hk as [_ Hk]. cbn [fst snd] in Heq, Hk.
    destruct (connected QA ps0) eqn:Ec; cbn [negb orb] in Heq, Hk.
    + injection Heq as _ <-. discriminate Hc.
    + injection Heq as -> ->. apply negb_true_iff, Z.ltb_ge in Hk. lia.
  - intros Hle. apply in_map_iff. exists (p, ps). cbn [snd fst]. rewrite Hc. split; [reflexivity|].
    apply filter_In. split; [exact Hin|]. cbn [snd]. rewrite Hc. apply negb_true_iff, Z.ltb_ge, Hle.
Qed.
